(** Hexadecimal text <-> bytes: the [hex] crate's [encode] / [decode] / [decode_to_slice]. *)
From Coq Require Import String.
From Coq Require Import List NArith Lia Bool PeanoNat.
From HDW Require Import Lib.Bytes.
Import ListNotations.
Open Scope N_scope.

(** lower-case digit of a nibble *)
Definition hex_digit (n : N) : N := if n <? 10 then 48 + n else 87 + n.

(** value of a digit in either case *)
Definition hex_val (c : N) : option N :=
  if (48 <=? c) && (c <=? 57) then Some (c - 48)
  else if (97 <=? c) && (c <=? 102) then Some (c - 87)
  else if (65 <=? c) && (c <=? 70) then Some (c - 55)
  else None.

Definition is_hex (c : N) : bool :=
  match hex_val c with Some _ => true | None => false end.

Fixpoint hex_encode (bs : bytes) : list N :=
  match bs with
  | [] => []
  | b :: r => hex_digit (b / 16) :: hex_digit (b mod 16) :: hex_encode r
  end.

(** [hex::decode]: [None] on an odd number of characters or a non-hex character. *)
Fixpoint hex_decode (s : list N) : option bytes :=
  match s with
  | [] => Some []
  | [_] => None
  | h :: l :: r =>
      match hex_val h, hex_val l, hex_decode r with
      | Some a, Some b, Some bs => Some (a * 16 + b :: bs)
      | _, _, _ => None
      end
  end.

(** [hex::decode_to_slice(s, &mut [0; k])] *)
Definition hex_decode_fixed (k : nat) (s : list N) : option bytes :=
  match hex_decode s with
  | Some bs => if Nat.eqb (length bs) k then Some bs else None
  | None => None
  end.

(** [hex_val] read as a relation: the three digit ranges and their offsets. *)
Lemma hex_val_spec c v :
  hex_val c = Some v <->
  48 <= c <= 57 /\ c = 48 + v \/ 97 <= c <= 102 /\ c = 87 + v \/ 65 <= c <= 70 /\ c = 55 + v.
Proof.
  unfold hex_val.
  destruct ((48 <=? c) && (c <=? 57)) eqn:E1; [split; [intros [= <-]|intros H; f_equal]; lia|].
  destruct ((97 <=? c) && (c <=? 102)) eqn:E2; [split; [intros [= <-]|intros H; f_equal]; lia|].
  destruct ((65 <=? c) && (c <=? 70)) eqn:E3; [split; [intros [= <-]|intros H; f_equal]; lia|].
  split; [discriminate|lia].
Qed.

Lemma hex_val_digit n : n < 16 -> hex_val (hex_digit n) = Some n.
Proof. intros Hn. apply hex_val_spec. unfold hex_digit. destruct (N.ltb_spec n 10); lia. Qed.

Lemma hex_val_bound c v : hex_val c = Some v -> v < 16.
Proof. rewrite hex_val_spec. lia. Qed.

Lemma hex_val_ascii c v : hex_val c = Some v -> c < 128.
Proof. rewrite hex_val_spec. lia. Qed.

Lemma hex_val_to_lower c v : hex_val c = Some v -> to_lower c = hex_digit v.
Proof.
  rewrite hex_val_spec. unfold to_lower, is_upper, hex_digit. intros H.
  destruct ((65 <=? c) && (c <=? 90)) eqn:E, (N.ltb_spec v 10); lia.
Qed.

Lemma hex_val_lower c : hex_val (to_lower c) = hex_val c.
Proof.
  unfold to_lower, is_upper. destruct ((65 <=? c) && (c <=? 90)) eqn:E; [|reflexivity].
  assert (K : forall v, hex_val (c + 32) = Some v <-> hex_val c = Some v)
    by (intros v; rewrite !hex_val_spec; lia).
  destruct (hex_val c) as [v|]; [apply K; reflexivity|].
  destruct (hex_val (c + 32)) as [v|]; [symmetry; apply K|]; reflexivity.
Qed.

Lemma hex_val_upper c : hex_val (to_upper c) = hex_val c.
Proof. rewrite <- hex_val_lower, to_lower_upper. apply hex_val_lower. Qed.

Lemma hex_digit_lower n : n < 16 -> to_lower (hex_digit n) = hex_digit n.
Proof. intros Hn. apply hex_val_to_lower, hex_val_digit, Hn. Qed.

Lemma hex_digit_eqb n m : n < 16 -> m < 16 -> (hex_digit n =? hex_digit m) = (n =? m).
Proof.
  intros Hn Hm. apply eq_true_iff_eq. rewrite !N.eqb_eq. unfold hex_digit.
  destruct (N.ltb_spec n 10), (N.ltb_spec m 10); lia.
Qed.

Lemma hex_decode_encode bs : bytes_ok bs -> hex_decode (hex_encode bs) = Some bs.
Proof.
  induction 1 as [|b r Hb _ IH]; [reflexivity|].
  cbn [hex_encode hex_decode]. rewrite IH.
  rewrite !hex_val_digit by lia. do 2 f_equal. lia.
Qed.

Lemma hex_encode_length bs : length (hex_encode bs) = (2 * length bs)%nat.
Proof. induction bs as [|b r IH]; [reflexivity|]. cbn [hex_encode length]. rewrite IH. lia. Qed.

Lemma hex_encode_app a b : hex_encode (a ++ b) = hex_encode a ++ hex_encode b.
Proof. induction a as [|x a IH]; [reflexivity|]. cbn [app hex_encode]. rewrite IH. reflexivity. Qed.

Lemma list_ind2 {A} (P : list A -> Prop) :
  P [] -> (forall x, P [x]) -> (forall x y r, P r -> P (x :: y :: r)) -> forall l, P l.
Proof.
  intros H0 H1 H2.
  assert (H : forall l, P l /\ forall x, P (x :: l)).
  { induction l as [|y r [IHa IHb]]; split; auto. }
  intros l; apply H.
Qed.

(** a successful [hex_decode], read as a relation between text and bytes *)
Lemma hex_decode_ind (P : list N -> bytes -> Prop) :
  P [] [] ->
  (forall h l r a b bs, hex_val h = Some a -> hex_val l = Some b -> hex_decode r = Some bs ->
     P r bs -> P (h :: l :: r) (a * 16 + b :: bs)) ->
  forall s bs, hex_decode s = Some bs -> P s bs.
Proof.
  intros P0 P2. induction s as [| x | h l r IH] using list_ind2; intros bs H.
  - injection H as <-. exact P0.
  - discriminate.
  - cbn [hex_decode] in H.
    destruct (hex_val h) as [a|] eqn:Ha; [|discriminate].
    destruct (hex_val l) as [b|] eqn:Hb; [|discriminate].
    destruct (hex_decode r) as [bs'|] eqn:Hr; [|discriminate].
    injection H as <-. apply P2; auto.
Qed.

Lemma hex_decode_sound s bs :
  hex_decode s = Some bs ->
  bytes_ok bs /\ map to_lower s = hex_encode bs /\ length s = (2 * length bs)%nat.
Proof.
  revert s bs. apply hex_decode_ind; [repeat split; constructor|].
  intros h l r a b bs Ha Hb _ (Hok & Hmap & Hlen).
  pose proof (hex_val_bound _ _ Ha). pose proof (hex_val_bound _ _ Hb).
  split; [constructor; [lia|assumption]|]. split; [|cbn [length]; lia].
  cbn [map hex_encode]. rewrite Hmap.
  replace ((a * 16 + b) / 16) with a by lia. replace ((a * 16 + b) mod 16) with b by lia.
  rewrite (hex_val_to_lower _ _ Ha), (hex_val_to_lower _ _ Hb). reflexivity.
Qed.

Lemma hex_decode_case f s : (forall c, hex_val (f c) = hex_val c) -> hex_decode (map f s) = hex_decode s.
Proof.
  intros Hf. induction s as [| x | h l r IH] using list_ind2; [reflexivity|reflexivity|].
  cbn [map hex_decode]. rewrite !Hf, IH. reflexivity.
Qed.

Lemma hex_decode_lower s : hex_decode (map to_lower s) = hex_decode s.
Proof. apply hex_decode_case, hex_val_lower. Qed.

Lemma hex_decode_upper s : hex_decode (map to_upper s) = hex_decode s.
Proof. apply hex_decode_case, hex_val_upper. Qed.

Lemma hex_decode_complete s bs :
  bytes_ok bs -> map to_lower s = hex_encode bs -> hex_decode s = Some bs.
Proof.
  intros Hok Hs. rewrite <- hex_decode_lower, Hs. apply hex_decode_encode; assumption.
Qed.

Lemma hex_decode_odd s : Nat.odd (length s) = true -> hex_decode s = None.
Proof.
  intros H. destruct (hex_decode s) as [bs|] eqn:E; [|reflexivity].
  apply hex_decode_sound in E as (_ & _ & L). rewrite L, Nat.odd_mul in H. discriminate H.
Qed.

Lemma hex_decode_all_hex s bs : hex_decode s = Some bs -> forallb is_hex s = true.
Proof.
  revert s bs. apply hex_decode_ind; [reflexivity|].
  intros h l r a b bs Ha Hb _ IH. cbn [forallb]. unfold is_hex at 1 2. rewrite Ha, Hb. exact IH.
Qed.

Lemma hex_decode_bad_char s : forallb is_hex s = false -> hex_decode s = None.
Proof.
  intros H. destruct (hex_decode s) eqn:E; [|reflexivity].
  apply hex_decode_all_hex in E. congruence.
Qed.

Lemma hex_encode_is_hex bs : bytes_ok bs -> forallb is_hex (hex_encode bs) = true.
Proof.
  intros H. eapply hex_decode_all_hex. apply hex_decode_encode; exact H.
Qed.

Lemma all_hex_ascii h : forallb is_hex h = true -> all_ascii h.
Proof.
  intros H. apply Forall_forall. intros c Hc. rewrite forallb_forall in H.
  specialize (H c Hc). unfold is_hex in H. destruct (hex_val c) eqn:E; [|discriminate].
  eapply hex_val_ascii; eassumption.
Qed.

Lemma hex_encode_lower bs : bytes_ok bs -> map to_lower (hex_encode bs) = hex_encode bs.
Proof. intros H. apply (hex_decode_sound _ _ (hex_decode_encode bs H)). Qed.

Lemma hex_encode_ascii bs : bytes_ok bs -> all_ascii (hex_encode bs).
Proof. intros H. apply all_hex_ascii, hex_encode_is_hex, H. Qed.

(** ['x'] is no hex digit, so a run of hex digits has no ["0x"] prefix to strip. *)
Lemma all_hex_no_0x h : forallb is_hex h = true -> strip_prefix (s2l "0x") h = None.
Proof.
  intros H. change (s2l "0x") with [48; 120].
  destruct h as [|c [|d r]]; cbn [strip_prefix]; [reflexivity|destruct (48 =? c); reflexivity|].
  destruct (48 =? c); [|reflexivity]. destruct (N.eqb_spec 120 d) as [<-|]; [|reflexivity].
  cbn in H. rewrite andb_false_r in H. discriminate.
Qed.

(** A successful [hex_decode] of UTF-8 bytes saw ASCII only, so the text is its own encoding. *)
Lemma hex_decode_utf8 s b : hex_decode (utf8 s) = Some b -> utf8 s = s.
Proof. intros H. apply utf8_ascii_inv, all_hex_ascii. eapply hex_decode_all_hex, H. Qed.

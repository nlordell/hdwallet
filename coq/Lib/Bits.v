(** Bit fields of a natural number: shifts, masks and [N.lor] read as division, remainder and
    addition.  Used where the Rust code packs bits (the 11-bit mnemonic accumulator, the hardened
    flag of a path component). *)
From Coq Require Import NArith Lia Bool.
Open Scope N_scope.

Lemma pow2_nz k : 2 ^ k <> 0.
Proof. apply N.pow_nonzero. discriminate. Qed.

Lemma div_pow2_pow2 x a b : x / 2 ^ a / 2 ^ b = x / 2 ^ (a + b).
Proof. rewrite N.div_div by apply pow2_nz. rewrite N.pow_add_r. reflexivity. Qed.

(** a [w]-bit field at bit [s] of a value only known modulo [2^a], when the field fits:
    bit [n < w] of either side is bit [n + s < a] of [x] *)
Lemma extract_mod x a s w : s + w <= a -> ((x mod 2 ^ a) / 2 ^ s) mod 2 ^ w = (x / 2 ^ s) mod 2 ^ w.
Proof.
  intros H. rewrite <- !N.shiftr_div_pow2, <- !N.land_ones. apply N.bits_inj. intros n.
  rewrite !N.land_spec, !N.shiftr_spec', N.land_spec.
  destruct (N.lt_ge_cases n w) as [Hn|Hn].
  - rewrite (N.ones_spec_low a) by lia. rewrite andb_true_r. reflexivity.
  - rewrite (N.ones_spec_high w) by lia. rewrite !andb_false_r. reflexivity.
Qed.

Lemma mod_pow2_mod x a b : b <= a -> (x mod 2 ^ a) mod 2 ^ b = x mod 2 ^ b.
Proof.
  intros H. pose proof (extract_mod x a 0 b H) as E. rewrite N.pow_0_r, !N.div_1_r in E. exact E.
Qed.

Lemma shiftr_land_ones x s w : N.land (N.shiftr x s) (N.ones w) = (x / 2 ^ s) mod 2 ^ w.
Proof. rewrite N.land_ones, N.shiftr_div_pow2. reflexivity. Qed.

(** the mask [(1 << k) - 1] *)
Lemma land_mask x k : N.land x (N.shiftl 1 k - 1) = x mod 2 ^ k.
Proof. rewrite N.shiftl_1_l, <- N.pred_sub, <- N.ones_equiv. apply N.land_ones. Qed.

Lemma lor_add a b : N.land a b = 0 -> N.lor a b = a + b.
Proof. intros H. rewrite <- N.lxor_lor by exact H. symmetry. apply N.add_nocarry_lxor, H. Qed.

Lemma land_shiftl_low a i k : i < 2 ^ k -> N.land (N.shiftl a k) i = 0.
Proof.
  intros Hi. apply N.bits_inj. intros n. rewrite N.land_spec, N.bits_0.
  destruct (N.lt_ge_cases n k) as [Hn|Hn].
  - rewrite N.shiftl_spec_low by exact Hn. reflexivity.
  - rewrite <- (N.mod_small i (2 ^ k) Hi), N.mod_pow2_bits_high by exact Hn. apply andb_false_r.
Qed.

Lemma land_pow2_small v k : v < 2 ^ k -> N.land v (2 ^ k) = 0.
Proof.
  intros H. rewrite <- (N.shiftl_1_l k), N.land_comm. apply land_shiftl_low, H.
Qed.

Lemma lor_pow2_add v k : v < 2 ^ k -> N.lor v (2 ^ k) = v + 2 ^ k.
Proof. intros H. apply lor_add, land_pow2_small, H. Qed.

(** Positional notation in an arbitrary base: digits <-> value.
    Shared by decimal printing/parsing (C10, C14), the radix-2/8/10/16 number texts of C13,
    big-endian byte strings (C01, C03, C06, C07) and the base-2048 word indices of C01.
    Digits and values are [N]. *)
From Coq Require Import List NArith Lia Bool PeanoNat Arith.
Import ListNotations.
Open Scope N_scope.

Definition of_digits (b : N) (ds : list N) : N :=
  fold_left (fun a d => a * b + d) ds 0.

Fixpoint to_digits_fuel (b : N) (f : nat) (n : N) (acc : list N) : list N :=
  match f with
  | O => acc
  | S f' => if n =? 0 then acc else to_digits_fuel b f' (n / b) (n mod b :: acc)
  end.

(** Minimal digit string of [n] (empty for 0), most significant digit first. *)
Definition to_digits (b n : N) : list N :=
  to_digits_fuel b (N.to_nat (N.size n)) n [].

(** Exactly [k] digits, most significant first (value taken mod b^k). *)
Fixpoint to_digits_fixed (b : N) (k : nat) (v : N) : list N :=
  match k with
  | O => []
  | S k' => to_digits_fixed b k' (v / b) ++ [v mod b]
  end.

Definition digits_ok (b : N) (ds : list N) : Prop := Forall (fun d => d < b) ds.

Definition canonical (ds : list N) : Prop :=
  match ds with [] => True | d :: _ => d <> 0 end.

(** drop leading zero digits *)
Fixpoint strip0 (l : list N) : list N :=
  match l with
  | 0 :: r => strip0 r
  | _ => l
  end.

Lemma of_digits_acc b ds a :
  fold_left (fun a d => a * b + d) ds a = a * b ^ N.of_nat (length ds) + of_digits b ds.
Proof.
  unfold of_digits. revert a; induction ds as [|d r IH]; intros a.
  - cbn [fold_left length]. change (N.of_nat 0) with 0. rewrite N.pow_0_r. lia.
  - cbn [fold_left length]. rewrite IH. rewrite (IH (0 * b + d)).
    rewrite Nat2N.inj_succ, N.pow_succ_r'. lia.
Qed.

Lemma of_digits_nil b : of_digits b [] = 0.
Proof. reflexivity. Qed.

Lemma of_digits_cons b d r :
  of_digits b (d :: r) = d * b ^ N.of_nat (length r) + of_digits b r.
Proof.
  unfold of_digits at 1. cbn [fold_left]. rewrite of_digits_acc. lia.
Qed.

Lemma of_digits_app b l1 l2 :
  of_digits b (l1 ++ l2) = of_digits b l1 * b ^ N.of_nat (length l2) + of_digits b l2.
Proof.
  unfold of_digits at 1. rewrite fold_left_app.
  fold (of_digits b l1). apply of_digits_acc.
Qed.

Lemma of_digits_snoc b l d : of_digits b (l ++ [d]) = of_digits b l * b + d.
Proof. unfold of_digits. rewrite fold_left_app. reflexivity. Qed.

Lemma of_digits_bound b ds :
  digits_ok b ds -> of_digits b ds < b ^ N.of_nat (length ds).
Proof.
  induction ds as [|d r IH] using rev_ind; intros H.
  - simpl. unfold of_digits; simpl. lia.
  - apply Forall_app in H as [Hr Hd]. inversion Hd as [|? ? Hd' _]; subst.
    rewrite of_digits_snoc, app_length. cbn [length].
    rewrite Nat.add_1_r, Nat2N.inj_succ, N.pow_succ_r'.
    specialize (IH Hr). nia.
Qed.

Lemma of_digits_zeros b k ds : of_digits b (repeat 0 k ++ ds) = of_digits b ds.
Proof.
  induction k as [|k IH]; [reflexivity|].
  cbn [repeat app]. rewrite of_digits_cons, IH. lia.
Qed.

Lemma to_digits_fuel_spec b (Hb : 2 <= b) f : forall n acc,
  n < 2 ^ N.of_nat f ->
  exists pre, to_digits_fuel b f n acc = pre ++ acc
    /\ of_digits b pre = n /\ digits_ok b pre /\ canonical pre.
Proof.
  induction f as [|f IH]; intros n acc Hn; cbn [to_digits_fuel].
  - exists []. cbn in Hn. repeat split; [cbn; lia|constructor].
  - destruct (N.eqb_spec n 0) as [->|Hnz]; [exists []; repeat split; constructor|].
    rewrite Nat2N.inj_succ, N.pow_succ_r' in Hn.
    assert (Hq : n / b < 2 ^ N.of_nat f) by (apply N.div_lt_upper_bound; nia).
    destruct (IH (n / b) (n mod b :: acc) Hq) as (pre & Heq & Hval & Hok & Hcan).
    pose proof (N.div_mod n b ltac:(lia)) as Hdm. pose proof (N.mod_lt n b ltac:(lia)) as Hm.
    exists (pre ++ [n mod b]). rewrite Heq, <- app_assoc. repeat split.
    + rewrite of_digits_snoc, Hval. lia.
    + apply Forall_app. split; [assumption|]. constructor; [assumption|constructor].
    + destruct pre as [|d r]; [|exact Hcan]. cbn in *. lia.
Qed.

Lemma to_digits_spec b n (Hb : 2 <= b) :
  of_digits b (to_digits b n) = n /\ digits_ok b (to_digits b n) /\ canonical (to_digits b n).
Proof.
  unfold to_digits.
  destruct (to_digits_fuel_spec b Hb (N.to_nat (N.size n)) n []) as (pre & -> & H);
    [rewrite N2Nat.id; apply N.size_gt|].
  rewrite app_nil_r. exact H.
Qed.

Lemma of_to_digits b n : 2 <= b -> of_digits b (to_digits b n) = n.
Proof. intros; apply to_digits_spec; assumption. Qed.

Lemma to_digits_ok b n : 2 <= b -> digits_ok b (to_digits b n).
Proof. intros; apply to_digits_spec; assumption. Qed.

Lemma to_digits_canonical b n : 2 <= b -> canonical (to_digits b n).
Proof. intros; apply to_digits_spec; assumption. Qed.

Lemma to_digits_0 b : to_digits b 0 = [].
Proof. reflexivity. Qed.

Lemma to_digits_nonempty b n : 2 <= b -> n <> 0 -> to_digits b n <> [].
Proof.
  intros Hb Hn Heq. pose proof (of_to_digits b n Hb) as H. rewrite Heq in H.
  unfold of_digits in H; simpl in H. congruence.
Qed.

Lemma canonical_lower_bound b d r :
  2 <= b -> d <> 0 -> b ^ N.of_nat (length r) <= of_digits b (d :: r).
Proof. intros Hb Hd. rewrite of_digits_cons. nia. Qed.

Lemma digits_same_length_inj b (Hb : 2 <= b) : forall l1 l2,
  length l1 = length l2 -> digits_ok b l1 -> digits_ok b l2 ->
  of_digits b l1 = of_digits b l2 -> l1 = l2.
Proof.
  induction l1 as [|d1 r1 IH] using rev_ind; intros l2 Hlen H1 H2 Hv.
  - destruct l2; [reflexivity|discriminate].
  - destruct l2 as [|d2 r2 _] using rev_ind.
    { rewrite app_length in Hlen; simpl in Hlen; lia. }
    rewrite !app_length in Hlen; cbn [length] in Hlen.
    apply Forall_app in H1 as [H1r H1d]. apply Forall_app in H2 as [H2r H2d].
    apply Forall_inv in H1d, H2d.
    (* the last digit is the remainder, the rest the quotient *)
    rewrite !of_digits_snoc, !(N.mul_comm _ b) in Hv.
    destruct (N.div_mod_unique b _ _ _ _ H1d H2d Hv) as [Hr ->].
    f_equal. apply IH; auto; lia.
Qed.

Lemma canonical_length_le b ds k :
  2 <= b -> digits_ok b ds -> canonical ds ->
  ((length ds <= k)%nat <-> of_digits b ds < b ^ N.of_nat k).
Proof.
  intros Hb Hok C. split; intros H.
  - eapply N.lt_le_trans; [apply of_digits_bound, Hok|]. apply N.pow_le_mono_r; lia.
  - destruct ds as [|d r]; [cbn; lia|]. cbn in C. cbn [length].
    pose proof (canonical_lower_bound b d r Hb C) as L.
    destruct (Nat.le_gt_cases (S (length r)) k) as [|Hgt]; [assumption|exfalso].
    assert (b ^ N.of_nat k <= b ^ N.of_nat (length r)) by (apply N.pow_le_mono_r; lia).
    lia.
Qed.

Lemma canonical_inj b (Hb : 2 <= b) l1 l2 :
  digits_ok b l1 -> digits_ok b l2 -> canonical l1 -> canonical l2 ->
  of_digits b l1 = of_digits b l2 -> l1 = l2.
Proof.
  intros H1 H2 C1 C2 Hv.
  apply (digits_same_length_inj b Hb); auto.
  apply Nat.le_antisymm; apply (canonical_length_le b); auto;
    [rewrite Hv|rewrite <- Hv]; apply of_digits_bound; assumption.
Qed.

Lemma to_of_digits b ds :
  2 <= b -> digits_ok b ds -> canonical ds -> to_digits b (of_digits b ds) = ds.
Proof.
  intros Hb Hok Hcan.
  apply (canonical_inj b Hb); auto using to_digits_ok, to_digits_canonical.
  apply of_to_digits; assumption.
Qed.

Lemma to_digits_fixed_length b k v : length (to_digits_fixed b k v) = k.
Proof.
  revert v; induction k as [|k IH]; intros v; [reflexivity|].
  cbn [to_digits_fixed]. rewrite app_length, IH. simpl. lia.
Qed.

Lemma to_digits_fixed_ok b k v : 2 <= b -> digits_ok b (to_digits_fixed b k v).
Proof.
  intros Hb. revert v; induction k as [|k IH]; intros v; [constructor|].
  cbn [to_digits_fixed]. apply Forall_app; split; [apply IH|].
  constructor; [|constructor]. apply N.mod_lt; lia.
Qed.

(** digit [i] of the fixed-width string, counted from the most significant *)
Lemma to_digits_fixed_seq b k : b <> 0 -> forall v,
  to_digits_fixed b k v = map (fun i => (v / b ^ N.of_nat (k - 1 - i)) mod b) (seq 0 k).
Proof.
  intros Hb. induction k as [|k IH]; intros v; [reflexivity|].
  cbn [to_digits_fixed]. rewrite seq_S, map_app. cbn [map plus]. f_equal.
  - rewrite IH. apply map_ext_in. intros i Hi. apply in_seq in Hi.
    rewrite N.div_div by (try apply N.pow_nonzero; assumption).
    rewrite <- N.pow_succ_r'. do 3 f_equal. lia.
  - replace (S k - 1 - k)%nat with 0%nat by lia. change (N.of_nat 0) with 0.
    rewrite N.pow_0_r, N.div_1_r. reflexivity.
Qed.

Lemma of_to_digits_fixed b k v :
  2 <= b -> of_digits b (to_digits_fixed b k v) = v mod b ^ N.of_nat k.
Proof.
  intros Hb. revert v; induction k as [|k IH]; intros v.
  - simpl. rewrite N.mod_1_r. reflexivity.
  - cbn [to_digits_fixed]. rewrite of_digits_snoc, IH.
    rewrite Nat2N.inj_succ, N.pow_succ_r'.
    rewrite (N.mod_mul_r v b (b ^ N.of_nat k)); [lia | lia |].
    apply N.pow_nonzero; lia.
Qed.

Lemma of_to_digits_fixed_small b k v :
  2 <= b -> v < b ^ N.of_nat k -> of_digits b (to_digits_fixed b k v) = v.
Proof. intros Hb Hv. rewrite of_to_digits_fixed by assumption. apply N.mod_small; assumption. Qed.

Lemma to_of_digits_fixed b ds :
  2 <= b -> digits_ok b ds -> to_digits_fixed b (length ds) (of_digits b ds) = ds.
Proof.
  intros Hb Hok.
  apply (digits_same_length_inj b Hb).
  - apply to_digits_fixed_length.
  - apply to_digits_fixed_ok; assumption.
  - assumption.
  - apply of_to_digits_fixed_small; [assumption|]. apply of_digits_bound; assumption.
Qed.

Lemma to_of_digits_fixed_pad b k ds :
  2 <= b -> digits_ok b ds -> (length ds <= k)%nat ->
  to_digits_fixed b k (of_digits b ds) = repeat 0 (k - length ds) ++ ds.
Proof.
  intros Hb Hok Hlen. rewrite <- (of_digits_zeros b (k - length ds) ds).
  replace k with (length (repeat 0 (k - length ds) ++ ds)) at 1
    by (rewrite app_length, repeat_length; lia).
  apply to_of_digits_fixed; [exact Hb|]. apply Forall_app. split; [|exact Hok].
  apply Forall_forall. intros x Hx. apply repeat_spec in Hx. subst x. lia.
Qed.

Lemma to_digits_length_iff b k v :
  2 <= b -> (length (to_digits b v) <= k)%nat <-> v < b ^ N.of_nat k.
Proof.
  intros Hb. rewrite (canonical_length_le b) by auto using to_digits_ok, to_digits_canonical.
  rewrite of_to_digits by assumption. reflexivity.
Qed.

Lemma to_digits_length_le b k v :
  2 <= b -> v < b ^ N.of_nat k -> (length (to_digits b v) <= k)%nat.
Proof. intros Hb. apply to_digits_length_iff, Hb. Qed.

Lemma to_digits_fixed_pad b k v :
  2 <= b -> v < b ^ N.of_nat k ->
  to_digits_fixed b k v = repeat 0 (k - length (to_digits b v)) ++ to_digits b v.
Proof.
  intros Hb Hv. rewrite <- (of_to_digits b v Hb) at 1.
  apply to_of_digits_fixed_pad; auto using to_digits_ok, to_digits_length_le.
Qed.

Lemma strip0_zeros k ds : canonical ds -> strip0 (repeat 0 k ++ ds) = ds.
Proof.
  intros C. induction k as [|k IH]; cbn [repeat app]; [|exact IH].
  destruct ds as [|d r]; [reflexivity|]. cbn in C. cbn [strip0].
  destruct d; [congruence|reflexivity].
Qed.

Lemma strip0_fixed b k v :
  2 <= b -> v < b ^ N.of_nat k -> strip0 (to_digits_fixed b k v) = to_digits b v.
Proof.
  intros Hb Hv. rewrite to_digits_fixed_pad by assumption.
  apply strip0_zeros. apply to_digits_canonical; assumption.
Qed.

(** Bytes, text, big-endian integers, UTF-8 and ASCII helpers.

    A byte is an [N] below 256 ([bytes_ok]); text is a list of Unicode scalar values
    (code points) as [N].  ASCII-level parsers work on either, since an ASCII
    character is its own UTF-8 encoding ([utf8_ascii]). *)
From Coq Require Import String Ascii.
From Coq Require Import List NArith ZArith Lia Bool PeanoNat Arith ZifyBool ZifyNat ZifyN.
From HDW Require Import Lib.Radix.
Import ListNotations.
Open Scope N_scope.

(** [lia] understands division and modulo by constants from here on. *)
Ltac Zify.zify_post_hook ::= Z.div_mod_to_equations.

(** Quotient and remainder as variables: after [destruct ... as (q & m & -> & -> & -> & L)] no
    division is left for [lia] to expand, which matters once several nested ones are in sight. *)
Lemma div_mod_ex b c : 0 < b -> exists q m, c / b = q /\ c mod b = m /\ c = q * b + m /\ m < b.
Proof.
  intros Hb. exists (c / b), (c mod b). repeat split.
  - rewrite N.mul_comm. apply N.div_mod'.
  - apply N.mod_lt. intros ->. discriminate.
Qed.

Definition bytes := list N.
Definition text := list N.

Definition bytes_ok (bs : bytes) : Prop := Forall (fun b => b < 256) bs.
Definition bytes_okb (bs : bytes) : bool := forallb (fun b => b <? 256) bs.

Lemma bytes_okb_spec bs : bytes_okb bs = true <-> bytes_ok bs.
Proof.
  unfold bytes_okb, bytes_ok. rewrite forallb_forall, Forall_forall.
  split; intros H x Hx; apply N.ltb_lt, H, Hx.
Qed.

Lemma bytes_ok_app a b : bytes_ok (a ++ b) <-> bytes_ok a /\ bytes_ok b.
Proof. apply Forall_app. Qed.

Lemma bytes_ok_digits bs : bytes_ok bs <-> digits_ok 256 bs.
Proof. reflexivity. Qed.

(** ASCII string literal -> list of code points / bytes. *)
Definition s2l (s : string) : list N := map N_of_ascii (list_ascii_of_string s).
Arguments s2l s%string.

(** Big-endian value of a byte string, and the two printing directions. *)
Definition be_val (bs : bytes) : N := of_digits 256 bs.
Definition be_fixed (k : nat) (v : N) : bytes := to_digits_fixed 256 k v.
Definition be_min (v : N) : bytes := to_digits 256 v.

Lemma be_fixed_length k v : length (be_fixed k v) = k.
Proof. apply to_digits_fixed_length. Qed.
Lemma be_fixed_ok k v : bytes_ok (be_fixed k v).
Proof. apply to_digits_fixed_ok. lia. Qed.
Lemma be_val_fixed k v : v < 256 ^ N.of_nat k -> be_val (be_fixed k v) = v.
Proof. apply of_to_digits_fixed_small. lia. Qed.
Lemma be_val_fixed_mod k v : be_val (be_fixed k v) = v mod 256 ^ N.of_nat k.
Proof. apply of_to_digits_fixed. lia. Qed.
Lemma be_fixed_val bs : bytes_ok bs -> be_fixed (length bs) (be_val bs) = bs.
Proof. apply to_of_digits_fixed. lia. Qed.
Lemma be_val_bound bs : bytes_ok bs -> be_val bs < 256 ^ N.of_nat (length bs).
Proof. apply of_digits_bound. Qed.
Lemma be_min_ok v : bytes_ok (be_min v).
Proof. apply to_digits_ok. lia. Qed.
Lemma be_val_min v : be_val (be_min v) = v.
Proof. apply of_to_digits. lia. Qed.
Lemma be_min_canonical v : canonical (be_min v).
Proof. apply to_digits_canonical. lia. Qed.
Lemma be_min_val bs : bytes_ok bs -> canonical bs -> be_min (be_val bs) = bs.
Proof. apply to_of_digits. lia. Qed.
Lemma be_min_length_le k v : v < 256 ^ N.of_nat k -> (length (be_min v) <= k)%nat.
Proof. apply to_digits_length_le. lia. Qed.
Lemma strip0_be_fixed k v : v < 256 ^ N.of_nat k -> strip0 (be_fixed k v) = be_min v.
Proof. apply strip0_fixed. lia. Qed.

Lemma be_val_inj a b :
  length a = length b -> bytes_ok a -> bytes_ok b -> be_val a = be_val b -> a = b.
Proof. apply digits_same_length_inj. lia. Qed.

Lemma be_val_app_div a b : bytes_ok b -> be_val (a ++ b) / 256 ^ N.of_nat (length b) = be_val a.
Proof.
  intros Hb. unfold be_val. rewrite of_digits_app.
  rewrite N.div_add_l by (apply N.pow_nonzero; discriminate).
  rewrite N.div_small by (apply of_digits_bound, Hb). apply N.add_0_r.
Qed.

Lemma be_val_app_mod a b : bytes_ok b -> be_val (a ++ b) mod 256 ^ N.of_nat (length b) = be_val b.
Proof.
  intros Hb. unfold be_val.
  rewrite of_digits_app, N.add_comm, N.mod_add by (apply N.pow_nonzero; discriminate).
  apply N.mod_small, of_digits_bound, Hb.
Qed.

Lemma be_val_window buf o k : bytes_ok buf -> (o + k <= length buf)%nat ->
  be_val (firstn k (skipn o buf)) =
  (be_val buf / 256 ^ N.of_nat (length buf - o - k)) mod 256 ^ N.of_nat k.
Proof.
  intros Hok Hlen.
  set (w := firstn k (skipn o buf)). set (c := skipn k (skipn o buf)).
  assert (E : buf = (firstn o buf ++ w) ++ c).
  { unfold w, c. rewrite <- app_assoc, !firstn_skipn. reflexivity. }
  assert (Lw : length w = k) by (unfold w; rewrite firstn_length, skipn_length; lia).
  assert (Lc : length c = (length buf - o - k)%nat) by (unfold c; rewrite !skipn_length; lia).
  rewrite <- Lc, <- Lw. clearbody w c.
  rewrite E in Hok. apply bytes_ok_app in Hok as [Hok Hc]. apply bytes_ok_app in Hok as [_ Hw].
  rewrite E, be_val_app_div, be_val_app_mod by assumption. reflexivity.
Qed.

Lemma be_val_pad k b : be_val (repeat 0 k ++ b) = be_val b.
Proof. apply of_digits_zeros. Qed.

Lemma be_fixed_pad k b :
  bytes_ok b -> (length b <= k)%nat -> be_fixed k (be_val b) = repeat 0 (k - length b) ++ b.
Proof. apply to_of_digits_fixed_pad. lia. Qed.

Definition is_ascii (c : N) : bool := c <? 128.
Definition is_digit (c : N) : bool := (48 <=? c) && (c <=? 57).
Definition is_upper (c : N) : bool := (65 <=? c) && (c <=? 90).
Definition is_lower (c : N) : bool := (97 <=? c) && (c <=? 122).
Lemma is_digit_spec c : is_digit c = true <-> 48 <= c <= 57.
Proof. unfold is_digit. lia. Qed.

Definition to_lower (c : N) : N := if is_upper c then c + 32 else c.
Definition to_upper (c : N) : N := if is_lower c then c - 32 else c.

(** Rust's [char::is_whitespace]: the Unicode White_Space property. *)
Definition is_whitespace (c : N) : bool :=
  ((9 <=? c) && (c <=? 13)) || (c =? 32) || (c =? 0x85) || (c =? 0xA0) || (c =? 0x1680)
  || ((0x2000 <=? c) && (c <=? 0x200A)) || (c =? 0x2028) || (c =? 0x2029) || (c =? 0x202F)
  || (c =? 0x205F) || (c =? 0x3000).

Definition is_ascii_whitespace (c : N) : bool :=
  ((9 <=? c) && (c <=? 13)) || (c =? 32).

Lemma to_lower_upper c : to_lower (to_upper c) = to_lower c.
Proof.
  unfold to_upper, is_lower. destruct ((97 <=? c) && (c <=? 122)) eqn:E; [|reflexivity].
  unfold to_lower, is_upper.
  replace ((65 <=? c - 32) && (c - 32 <=? 90)) with true by lia.
  replace ((65 <=? c) && (c <=? 90)) with false by lia. lia.
Qed.

Definition utf8_char (c : N) : bytes :=
  if c <? 0x80 then [c]
  else if c <? 0x800 then [0xC0 + c / 64; 0x80 + c mod 64]
  else if c <? 0x10000 then [0xE0 + c / 4096; 0x80 + (c / 64) mod 64; 0x80 + c mod 64]
  else [0xF0 + (c / 262144) mod 8; 0x80 + (c / 4096) mod 64; 0x80 + (c / 64) mod 64; 0x80 + c mod 64].

Definition utf8 (t : text) : bytes := flat_map utf8_char t.

Definition all_ascii (t : list N) : Prop := Forall (fun c => c < 128) t.

(** The four length classes, with the payload written as base-64 digits of the code point. *)
Lemma utf8_char_cases c :
  c < 0x80 /\ utf8_char c = [c]
  \/ 0x80 <= c < 0x800 /\ utf8_char c = [0xC0 + c / 64; 0x80 + c mod 64]
  \/ 0x800 <= c < 0x10000 /\ utf8_char c = [0xE0 + c / 64 / 64; 0x80 + c / 64 mod 64; 0x80 + c mod 64]
  \/ 0x10000 <= c /\ utf8_char c = [0xF0 + c / 64 / 64 / 64 mod 8; 0x80 + c / 64 / 64 mod 64;
                                     0x80 + c / 64 mod 64; 0x80 + c mod 64].
Proof.
  unfold utf8_char. rewrite !N.div_div by discriminate.
  destruct (N.ltb_spec c 0x80); [auto|]. destruct (N.ltb_spec c 0x800); [auto|].
  destruct (N.ltb_spec c 0x10000); auto 6.
Qed.

Lemma utf8_ascii t : all_ascii t -> utf8 t = t.
Proof.
  induction 1 as [|c r Hc _ IH]; [reflexivity|].
  cbn [utf8 flat_map]. fold (utf8 r). rewrite IH.
  destruct (utf8_char_cases c) as [[_ ->]|[|[|]]]; [reflexivity|lia..].
Qed.

Lemma utf8_char_ok c : bytes_ok (utf8_char c).
Proof.
  destruct (utf8_char_cases c) as [[H ->]|[[H ->]|[[H ->]|[H ->]]]]; repeat constructor; lia.
Qed.

Lemma utf8_ok t : bytes_ok (utf8 t).
Proof.
  induction t as [|c r IH]; [constructor|].
  cbn [utf8 flat_map]. apply Forall_app; split; [apply utf8_char_ok|exact IH].
Qed.

Lemma utf8_char_high c : 128 <= c -> Forall (fun b => 128 <= b) (utf8_char c).
Proof.
  intros Hc. destruct (utf8_char_cases c) as [[H _]|[[_ ->]|[[_ ->]|[_ ->]]]]; [lia|..];
    repeat constructor; lia.
Qed.

Lemma utf8_all_ascii_inv t : all_ascii (utf8 t) -> all_ascii t.
Proof.
  induction t as [|c r IH]; intros H; [constructor|].
  cbn [utf8 flat_map] in H. apply Forall_app in H as [Hc Hr].
  constructor; [|apply IH; exact Hr].
  (* the lead byte of a longer encoding is not ASCII *)
  destruct (utf8_char_cases c) as [[H _]|[[_ E]|[[_ E]|[_ E]]]]; [exact H|..];
    rewrite E in Hc; apply Forall_inv in Hc; lia.
Qed.

Lemma utf8_ascii_inv t : all_ascii (utf8 t) -> utf8 t = t.
Proof. intros H. apply utf8_ascii, utf8_all_ascii_inv, H. Qed.

Fixpoint strip_prefix (p s : list N) : option (list N) :=
  match p, s with
  | [], _ => Some s
  | x :: p', y :: s' => if x =? y then strip_prefix p' s' else None
  | _ :: _, [] => None
  end.

Lemma strip_prefix_app p s : strip_prefix p (p ++ s) = Some s.
Proof. induction p as [|x p IH]; [reflexivity|]. cbn. rewrite N.eqb_refl. exact IH. Qed.

Lemma strip_prefix_some p s r : strip_prefix p s = Some r -> s = p ++ r.
Proof.
  revert s; induction p as [|x p IH]; intros s H.
  - inversion H; reflexivity.
  - destruct s as [|y s']; [discriminate|]. cbn in H.
    destruct (N.eqb_spec x y); [|discriminate]. subst. cbn. f_equal. apply IH; assumption.
Qed.

Definition list_eqb (a b : list N) : bool :=
  (Nat.eqb (length a) (length b)) && forallb (fun p => fst p =? snd p) (combine a b).

Lemma list_eqb_spec a b : list_eqb a b = true <-> a = b.
Proof.
  unfold list_eqb. revert b; induction a as [|x a IH]; intros [|y b]; cbn;
    try (split; [reflexivity || discriminate|reflexivity || discriminate]).
  rewrite andb_assoc, (andb_comm (Nat.eqb _ _)), <- andb_assoc, andb_true_iff, N.eqb_eq, IH.
  split; [intros [-> ->]; reflexivity|intros [= -> ->]; auto].
Qed.

Lemma list_eqb_refl a : list_eqb a a = true.
Proof. apply list_eqb_spec. reflexivity. Qed.

Lemma list_eqb_false a b : a <> b -> list_eqb a b = false.
Proof. intros H. destruct (list_eqb a b) eqn:E; [|reflexivity]. apply list_eqb_spec in E. contradiction. Qed.

Lemma firstn_app_len {A} (a b : list A) k : length a = k -> firstn k (a ++ b) = a.
Proof. intros <-. rewrite firstn_app, Nat.sub_diag, firstn_O, app_nil_r. apply firstn_all. Qed.

Lemma skipn_app_len {A} (a b : list A) k : length a = k -> skipn k (a ++ b) = b.
Proof. intros <-. rewrite skipn_app, Nat.sub_diag, skipn_all. reflexivity. Qed.

Lemma pow256 k : 256 ^ k = 2 ^ (8 * k).
Proof. rewrite N.pow_mul_r. reflexivity. Qed.

Lemma pow256_32 : 256 ^ N.of_nat 32 = 2 ^ 256.
Proof. reflexivity. Qed.

Lemma Forall2_impl {A B} (R R' : A -> B -> Prop) l l' :
  (forall a b, R a b -> R' a b) -> Forall2 R l l' -> Forall2 R' l l'.
Proof. intros H. induction 1; constructor; auto. Qed.

Lemma Forall2_Forall_l {A B} (R : A -> B -> Prop) (P : A -> Prop) l l' :
  (forall a b, R a b -> P a) -> Forall2 R l l' -> Forall P l.
Proof. intros H. induction 1; constructor; eauto. Qed.

Lemma Forall2_Forall_r {A B} (R : A -> B -> Prop) (P : B -> Prop) l l' :
  (forall a b, R a b -> P b) -> Forall2 R l l' -> Forall P l'.
Proof. intros H. induction 1; constructor; eauto. Qed.

(** a check over the range [base, base + n), as the kernel evaluates it *)
Lemma forallb_seq_N (P : N -> bool) base n d :
  forallb (fun i => P (base + N.of_nat i)) (seq 0 n) = true -> base <= d < base + N.of_nat n -> P d = true.
Proof.
  intros H Hd. rewrite forallb_forall in H.
  specialize (H (N.to_nat (d - base))). rewrite N2Nat.id in H.
  replace (base + (d - base)) with d in H by lia. apply H, in_seq. lia.
Qed.

Lemma app_snoc_in {A} (a b t : list A) x : a ++ b = t ++ [x] -> b <> [] -> In x b.
Proof.
  intros H Hb. destruct (exists_last Hb) as (b' & y & ->).
  rewrite app_assoc in H. apply app_inj_tail in H as [_ ->].
  apply in_or_app. right. left. reflexivity.
Qed.

(** Decimal text: Rust's [Display] for unsigned integers and [FromStr] for [u32]/[usize]. *)
From Coq Require Import List NArith Lia Bool PeanoNat.
From HDW Require Import Lib.Radix Lib.Bytes.
Import ListNotations.
Open Scope N_scope.

(** [format!("{n}")] *)
Definition decimal (n : N) : list N :=
  if n =? 0 then [48] else map (fun d => 48 + d) (to_digits 10 n).

Definition digit_val (c : N) : option N :=
  if (48 <=? c) && (c <=? 57) then Some (c - 48) else None.

Fixpoint parse_digits (s : list N) (acc : N) : option N :=
  match s with
  | [] => Some acc
  | c :: r => match digit_val c with Some d => parse_digits r (acc * 10 + d) | None => None end
  end.

(** [<uN as FromStr>::from_str] with [max = 2^N - 1]: an optional single [+], at least one
    ASCII digit, nothing else; leading zeros allowed; overflow is an error. *)
Definition parse_uint (max : N) (s : list N) : option N :=
  let s' := match s with 43 :: r => r | _ => s end in
  match s' with
  | [] => None
  | _ => match parse_digits s' 0 with
         | Some v => if v <=? max then Some v else None
         | None => None
         end
  end.

Definition all_digits (s : list N) : Prop := Forall (fun c => 48 <= c <= 57) s.

Lemma parse_digits_spec s : forall acc,
  all_digits s ->
  parse_digits s acc = Some (acc * 10 ^ N.of_nat (length s) + of_digits 10 (map (fun c => c - 48) s)).
Proof.
  induction s as [|c r IH]; intros acc H.
  - cbn. f_equal. lia.
  - inversion H as [|? ? Hc Hr]; subst. cbn [parse_digits]. unfold digit_val.
    replace ((48 <=? c) && (c <=? 57)) with true by lia.
    rewrite IH by assumption. cbn [map length]. rewrite of_digits_cons, map_length.
    rewrite Nat2N.inj_succ, N.pow_succ_r'. f_equal. lia.
Qed.

Lemma parse_digits_some s : forall acc v, parse_digits s acc = Some v -> all_digits s.
Proof.
  induction s as [|c r IH]; intros acc v H; [constructor|].
  cbn [parse_digits] in H. unfold digit_val in H.
  destruct ((48 <=? c) && (c <=? 57)) eqn:E; [|discriminate].
  constructor; [lia|]. eapply IH; eassumption.
Qed.

Lemma decimal_digits n : all_digits (decimal n).
Proof.
  unfold decimal. destruct (N.eqb_spec n 0); [repeat constructor; lia|].
  pose proof (to_digits_ok 10 n ltac:(lia)) as H.
  induction H as [|d r Hd _ IH]; [constructor|]. cbn [map]. constructor; [lia|exact IH].
Qed.

Lemma decimal_nonempty n : decimal n <> [].
Proof.
  unfold decimal. destruct (N.eqb_spec n 0); [discriminate|].
  intros H. apply map_eq_nil in H. revert H. apply to_digits_nonempty; lia.
Qed.

Lemma decimal_value n : of_digits 10 (map (fun c => c - 48) (decimal n)) = n.
Proof.
  unfold decimal. destruct (N.eqb_spec n 0) as [->|Hn]; [reflexivity|].
  rewrite map_map, (map_ext _ (fun d => d)), map_id by (intros; lia). apply of_to_digits; lia.
Qed.

(** [parse_uint] drops one leading [+]; the pattern [43 :: r] is a match on the bits of the head,
    so the case "some other head" is settled once here. *)
Lemma skip_plus_other c r : c <> 43 -> match c :: r with 43 :: r0 => r0 | _ => c :: r end = c :: r.
Proof.
  intros Hc. destruct c as [|p]; [reflexivity|].
  repeat (destruct p as [p|p|]; try reflexivity). congruence.
Qed.

Lemma parse_uint_spelled max plus ds :
  (plus = [] \/ plus = [43]) -> ds <> [] -> all_digits ds ->
  parse_uint max (plus ++ ds)
  = let v := of_digits 10 (map (fun c => c - 48) ds) in if v <=? max then Some v else None.
Proof.
  intros Hp Hne Hd. destruct ds as [|c r]; [congruence|]. unfold parse_uint.
  assert (S : match plus ++ c :: r with 43 :: r0 => r0 | _ => plus ++ c :: r end = c :: r).
  { destruct Hp as [-> | ->]; [|reflexivity]. apply skip_plus_other. inversion Hd; lia. }
  rewrite S, parse_digits_spec by exact Hd. rewrite N.mul_0_l, N.add_0_l. reflexivity.
Qed.

Lemma parse_uint_digits max ds :
  ds <> [] -> all_digits ds -> of_digits 10 (map (fun c => c - 48) ds) <= max ->
  parse_uint max ds = Some (of_digits 10 (map (fun c => c - 48) ds)).
Proof.
  intros Hne D Hv. change ds with ([] ++ ds) at 1. rewrite parse_uint_spelled by auto. cbv zeta.
  replace (_ <=? max) with true by lia. reflexivity.
Qed.

Lemma parse_decimal max n : n <= max -> parse_uint max (decimal n) = Some n.
Proof.
  intros Hn. rewrite parse_uint_digits; rewrite ?decimal_value; auto using decimal_nonempty, decimal_digits.
Qed.

Lemma decimal_canonical n : n <> 0 -> exists c r, decimal n = c :: r /\ c <> 48.
Proof.
  intros Hn. unfold decimal. destruct (N.eqb_spec n 0); [contradiction|].
  pose proof (to_digits_canonical 10 n ltac:(lia)) as C.
  destruct (to_digits 10 n) as [|d r] eqn:E.
  - exfalso. eapply to_digits_nonempty; [| |exact E]; lia.
  - cbn in C. cbn [map]. exists (48 + d), (map (fun d => 48 + d) r). split; [reflexivity|lia].
Qed.

Lemma parse_uint_sound max s v :
  parse_uint max s = Some v ->
  v <= max /\ exists ds, (s = ds \/ s = 43 :: ds) /\ ds <> [] /\ all_digits ds
                        /\ v = of_digits 10 (map (fun c => c - 48) ds).
Proof.
  unfold parse_uint. intros H.
  set (s' := match s with 43 :: r => r | _ => s end) in *.
  assert (Hs : s = s' \/ s = 43 :: s').
  { subst s'. destruct s as [|c r]; [left; reflexivity|].
    destruct (N.eq_dec c 43) as [->|Hc]; [right; reflexivity|left].
    symmetry. apply skip_plus_other, Hc. }
  destruct s' as [|c r] eqn:E; [discriminate|].
  destruct (parse_digits (c :: r) 0) as [v'|] eqn:P; [|discriminate].
  destruct (N.leb_spec v' max); [|discriminate]. inversion H; subst v'.
  split; [assumption|]. exists (c :: r). split; [exact Hs|]. split; [discriminate|].
  pose proof (parse_digits_some _ _ _ P) as D. split; [exact D|].
  rewrite parse_digits_spec in P by exact D. rewrite N.mul_0_l, N.add_0_l in P.
  inversion P. reflexivity.
Qed.

Lemma parse_uint_reject_nondigit max s :
  (forall ds, (s = ds \/ s = 43 :: ds) -> ds = [] \/ ~ all_digits ds) -> parse_uint max s = None.
Proof.
  intros H. destruct (parse_uint max s) as [v|] eqn:E; [|reflexivity].
  apply parse_uint_sound in E as (_ & ds & Hs & Hne & Hd & _).
  destruct (H ds Hs); contradiction.
Qed.

Lemma parse_uint_bad_char max s c :
  In c s -> c <> 43 -> ~ (48 <= c <= 57) -> parse_uint max s = None.
Proof.
  intros Hin H1 H2. apply parse_uint_reject_nondigit. intros ds Hs. right. intros D.
  unfold all_digits in D. rewrite Forall_forall in D. apply H2, D.
  destruct Hs as [->| ->]; [exact Hin|]. destruct Hin as [E|Hin]; [congruence|exact Hin].
Qed.

Lemma decimal_no_char n c : ~ (48 <= c <= 57) -> ~ In c (decimal n).
Proof.
  intros Hc Hin. pose proof (decimal_digits n) as D. unfold all_digits in D.
  rewrite Forall_forall in D. apply Hc, D, Hin.
Qed.

Lemma decimal_length_le n k : n <> 0 -> (length (decimal n) <= k)%nat <-> n < 10 ^ N.of_nat k.
Proof.
  intros Hn. unfold decimal. destruct (N.eqb_spec n 0); [contradiction|].
  rewrite map_length. apply to_digits_length_iff. lia.
Qed.

Lemma decimal_length n k :
  10 ^ N.of_nat k <= n < 10 ^ N.of_nat (S k) -> length (decimal n) = S k.
Proof.
  intros [Hlo Hhi].
  assert (Hn : n <> 0) by (pose proof (N.pow_nonzero 10 (N.of_nat k)); lia).
  apply (decimal_length_le n (S k) Hn) in Hhi. pose proof (proj1 (decimal_length_le n k Hn)). lia.
Qed.

Lemma decimal_length_mono a b : a <= b -> (length (decimal a) <= length (decimal b))%nat.
Proof.
  intros Hab. destruct (N.eq_dec a 0) as [->|Ha].
  - pose proof (decimal_nonempty b). destruct (decimal b); [congruence|]. cbn. lia.
  - apply decimal_length_le; [exact Ha|]. eapply N.le_lt_trans; [exact Hab|].
    apply decimal_length_le; [lia|]. apply Nat.le_refl.
Qed.

(** Outcome of a modelled Rust computation.

    [Ok v]      the function returned [Ok(v)] / a value,
    [Err]       it returned an ordinary error ([?], [bail!], [ensure!]),
    [Panic]     an [unwrap]/[expect]/index/slice/overflow site in hdwallet's own code fired,
    [OutOfFuel] the fuel the model gave a non-structural loop ran out (proved unreachable). *)
From Coq Require Import List Lia PeanoNat.
Import ListNotations.

Inductive outcome (A : Type) : Type :=
| Ok (a : A)
| Err
| Panic
| OutOfFuel.
Arguments Ok {A} a.
Arguments Err {A}.
Arguments Panic {A}.
Arguments OutOfFuel {A}.

Definition bind {A B} (x : outcome A) (f : A -> outcome B) : outcome B :=
  match x with
  | Ok a => f a
  | Err => Err
  | Panic => Panic
  | OutOfFuel => OutOfFuel
  end.

Definition omap {A B} (f : A -> B) (x : outcome A) : outcome B :=
  bind x (fun a => Ok (f a)).

Definition of_option {A} (x : option A) : outcome A :=
  match x with Some a => Ok a | None => Err end.

Definition is_ok {A} (x : outcome A) : bool :=
  match x with Ok _ => true | _ => false end.

(** An outcome is "graceful" when it is a result or an ordinary error. *)
Definition graceful {A} (x : outcome A) : Prop := x <> Panic /\ x <> OutOfFuel.

Declare Scope outcome_scope.
Delimit Scope outcome_scope with outcome.
Notation "'let*' x ':=' e1 'in' e2" := (bind e1 (fun x => e2))
  (at level 200, x pattern, e1 at level 100, e2 at level 200, right associativity) : outcome_scope.
Notation "'ensure' c ';;' e" := (if c then e else Err)
  (at level 200, c at level 100, e at level 200, right associativity) : outcome_scope.

(** Collect a list of outcomes, stopping at the first non-[Ok] (like Rust's
    [collect::<Result<_>>]).  Spelled with matches so that [simpl] leaves a [match] on [f x];
    [omapM_cons] is the same with [bind] and [omap]. *)
Fixpoint omapM {A B} (f : A -> outcome B) (l : list A) : outcome (list B) :=
  match l with
  | [] => Ok []
  | x :: r =>
      match f x with
      | Ok y => match omapM f r with Ok ys => Ok (y :: ys) | Err => Err | Panic => Panic | OutOfFuel => OutOfFuel end
      | Err => Err
      | Panic => Panic
      | OutOfFuel => OutOfFuel
      end
  end.

(** as a lemma: [injection] on an equation between large terms normalises both sides *)
Lemma Ok_inj {A} (a b : A) : Ok a = Ok b -> a = b.
Proof. intros [= ->]. reflexivity. Qed.

Lemma bind_ok {A B} (x : outcome A) (f : A -> outcome B) b :
  bind x f = Ok b -> exists a, x = Ok a /\ f a = Ok b.
Proof. destruct x; simpl; intros H; try discriminate. eauto. Qed.

Lemma bind_ok_iff {A B} (x : outcome A) (f : A -> outcome B) b :
  bind x f = Ok b <-> exists a, x = Ok a /\ f a = Ok b.
Proof. split; [apply bind_ok|]. intros (a & -> & H). exact H. Qed.

Lemma omap_ok {A B} (f : A -> B) x b : omap f x = Ok b -> exists a, x = Ok a /\ b = f a.
Proof. intros H. apply bind_ok in H as (a & Ha & [= <-]). eauto. Qed.

Lemma omap_ok_iff {A B} (f : A -> B) x b : omap f x = Ok b <-> exists a, x = Ok a /\ b = f a.
Proof. split; [apply omap_ok|]. intros (a & -> & ->). reflexivity. Qed.

Lemma graceful_ok {A} (a : A) : graceful (Ok a).
Proof. split; discriminate. Qed.
Lemma graceful_err {A} : graceful (@Err A).
Proof. split; discriminate. Qed.

Lemma graceful_bind {A B} (x : outcome A) (f : A -> outcome B) :
  graceful x -> (forall a, x = Ok a -> graceful (f a)) -> graceful (bind x f).
Proof.
  intros [H1 H2] Hf. destruct x; simpl; try (split; discriminate); try congruence.
  apply Hf; reflexivity.
Qed.

Lemma graceful_cases {A} (x : outcome A) : graceful x -> (exists a, x = Ok a) \/ x = Err.
Proof. intros [H1 H2]. destruct x; try congruence; eauto. Qed.

Lemma graceful_not_ok_err {A} (x : outcome A) : graceful x -> (forall a, x <> Ok a) -> x = Err.
Proof. intros H N. destruct (graceful_cases x H) as [[a Ha]|]; [destruct (N a Ha)|assumption]. Qed.

Lemma graceful_omap {A B} (f : A -> B) x : graceful x -> graceful (omap f x).
Proof. intros H. apply graceful_bind; [exact H|]. intros; apply graceful_ok. Qed.

Lemma graceful_of_option {A} (x : option A) : graceful (of_option x).
Proof. destruct x; [apply graceful_ok|apply graceful_err]. Qed.

Lemma omapM_cons {A B} (f : A -> outcome B) x r :
  omapM f (x :: r) = bind (f x) (fun y => omap (cons y) (omapM f r)).
Proof. reflexivity. Qed.

Lemma omapM_ok {A B} (f : A -> outcome B) l ys :
  omapM f l = Ok ys -> Forall2 (fun x y => f x = Ok y) l ys.
Proof.
  revert ys; induction l as [|x r IH]; intros ys H.
  - inversion H; constructor.
  - rewrite omapM_cons in H. apply bind_ok in H as (y & Hy & H).
    apply omap_ok in H as (ys' & Hr & ->). constructor; auto.
Qed.

Lemma omapM_all_ok {A B} (f : A -> outcome B) l ys :
  Forall2 (fun x y => f x = Ok y) l ys -> omapM f l = Ok ys.
Proof.
  induction 1 as [|x y l ys Hxy _ IH]; simpl; [reflexivity|].
  rewrite Hxy, IH; reflexivity.
Qed.

Lemma omapM_graceful {A B} (f : A -> outcome B) l :
  (forall x, In x l -> graceful (f x)) -> graceful (omapM f l).
Proof.
  induction l as [|x r IH]; intros H; [apply graceful_ok|].
  rewrite omapM_cons. apply graceful_bind; [apply H; left; reflexivity|].
  intros y _. apply graceful_omap, IH. intros z Hz. apply H. right. exact Hz.
Qed.

Lemma omapM_ok_in {A B} (f : A -> outcome B) l ys x :
  omapM f l = Ok ys -> In x l -> exists y, f x = Ok y.
Proof.
  intros H. apply omapM_ok in H. induction H as [|x' y l ys Hxy _ IH]; [intros []|].
  intros [->|Hin]; eauto.
Qed.

Lemma omapM_map {A B} (f : A -> outcome B) (g : A -> B) l :
  Forall (fun x => f x = Ok (g x)) l -> omapM f l = Ok (map g l).
Proof. induction 1 as [|x l Hx _ IH]; cbn [omapM map]; [|rewrite Hx, IH]; reflexivity. Qed.

Lemma omapM_Forall {A B} (f : A -> outcome B) (P : B -> Prop) l ys :
  omapM f l = Ok ys -> (forall x y, f x = Ok y -> P y) -> Forall P ys.
Proof.
  intros H Hf. apply omapM_ok in H. induction H as [|x y l ys Hxy _ IH]; constructor; eauto.
Qed.

(** If one more unit of fuel keeps every result that is not [OutOfFuel], so does any amount more. *)
Section Fuel.
  Context {A : Type} (F : nat -> outcome A).
  Hypothesis step : forall f, F f <> OutOfFuel -> F (S f) = F f.

  Lemma fuel_add k f : F f <> OutOfFuel -> F (k + f) = F f.
  Proof.
    intros H. induction k as [|k IH]; [reflexivity|].
    cbn [Nat.add]. rewrite step; rewrite IH; [reflexivity|exact H].
  Qed.

  Lemma fuel_mono f g : (f <= g)%nat -> F f <> OutOfFuel -> F g = F f.
  Proof. intros L H. replace g with ((g - f) + f)%nat by lia. apply fuel_add, H. Qed.

  Lemma fuel_le f g x : (f <= g)%nat -> F f = Ok x -> F g = Ok x.
  Proof. intros L H. rewrite (fuel_mono f g L); congruence. Qed.

  Lemma fuel_agree f g : F f <> OutOfFuel -> F g <> OutOfFuel -> F f = F g.
  Proof.
    intros Hf Hg. destruct (Nat.le_ge_cases f g); [symmetry|]; apply fuel_mono; assumption.
  Qed.
End Fuel.

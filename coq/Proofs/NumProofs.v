(** Proofs about [Model/Num.v] (property C13): ethnum's integer parser in closed form, the
    texts each field deserialiser accepts, and that none of them panics. *)
From Coq Require Import String.
From Coq Require Import List NArith ZArith Lia Bool.
From HDW Require Import Lib.Outcome Lib.Radix Lib.Bytes Lib.Hex Lib.Decimal Model.Json Model.Num
  Spec.AccountSpec.
Import ListNotations.
Open Scope N_scope.

Lemma guard_some {A} (b : bool) (x y : A) :
  (if b then Some x else None) = Some y <-> b = true /\ x = y.
Proof. destruct b; intuition congruence. Qed.

Lemma to_digit_spec radix c d :
  radix <= 36 -> (to_digit radix c = Some d <-> digit_char radix c d).
Proof.
  intros Hr. unfold to_digit, digit_char.
  destruct ((48 <=? c) && (c <=? 57)) eqn:E1; [rewrite guard_some; lia|].
  destruct ((97 <=? c) && (c <=? 122)) eqn:E2; [rewrite guard_some; lia|].
  destruct ((65 <=? c) && (c <=? 90)) eqn:E3; [rewrite guard_some; lia|].
  split; [discriminate|lia].
Qed.

Lemma to_digit_16 c : to_digit 16 c = hex_val c.
Proof.
  assert (K : forall v, to_digit 16 c = Some v <-> hex_val c = Some v).
  { intros v. rewrite to_digit_spec, hex_val_spec by lia. unfold digit_char. lia. }
  destruct (hex_val c) as [v|]; [apply K; reflexivity|].
  destruct (to_digit 16 c) as [v|]; [symmetry; apply K|]; reflexivity.
Qed.

(** all digits of a byte string, or [None] if one is not a digit of the radix *)
Fixpoint digits_of (radix : N) (ds : bytes) : option (list N) :=
  match ds with
  | [] => Some []
  | c :: r =>
      match to_digit radix c, digits_of radix r with
      | Some d, Some l => Some (d :: l)
      | _, _ => None
      end
  end.

Lemma digits_of_chars radix ds dv :
  radix <= 36 -> (digits_of radix ds = Some dv <-> Forall2 (digit_char radix) ds dv).
Proof.
  intros Hr. revert dv. induction ds as [|c r IH]; intros dv; cbn [digits_of].
  - split; intros H; inversion H; constructor.
  - split.
    + intros H. destruct (to_digit radix c) as [d|] eqn:Ec; [|discriminate].
      destruct (digits_of radix r) as [l|]; [|discriminate]. injection H as <-.
      constructor; [apply to_digit_spec; assumption|apply IH; reflexivity].
    + intros H. inversion H as [|? d ? l Hc Hl]; subst.
      apply to_digit_spec in Hc; [|exact Hr]. apply IH in Hl. rewrite Hc, Hl. reflexivity.
Qed.

Lemma digit_chars_ok radix ds dv :
  Forall2 (digit_char radix) ds dv -> digits_ok radix dv /\ length dv = length ds.
Proof.
  induction 1 as [|c d ds dv Hc _ [IH1 IH2]]; [split; [constructor|reflexivity]|].
  split; [constructor; [exact (proj1 Hc)|exact IH1]|]. cbn [length]. rewrite IH2. reflexivity.
Qed.

Lemma digits_spelled radix f dv :
  (forall d, d < radix -> digit_char radix (f d) d) -> digits_ok radix dv ->
  Forall2 (digit_char radix) (map f dv) dv.
Proof.
  intros Hf. induction 1 as [|d l Hd _ IH]; [constructor|]. cbn [map].
  constructor; [exact (Hf d Hd)|exact IH].
Qed.

(** the sign as a factor: the parser's result is [sgz is_positive * magnitude] *)
Definition sgz (is_positive : bool) : Z := if is_positive then 1%Z else (-1)%Z.

(** For numbers of one sign, being in range is a bound on the magnitude. *)
Lemma in_range_mag signed bits p :
  exists lim, forall a, in_range signed bits (sgz p * Z.of_N a) = (a <=? lim).
Proof.
  exists (Z.to_N (if p then int_max signed bits else - int_min signed bits)). intros a.
  unfold in_range, int_min, int_max, sgz.
  assert (0 < 2 ^ Z.of_N bits)%Z by (apply Z.pow_pos_nonneg; lia).
  assert (0 < 2 ^ Z.of_N (bits - 1))%Z by (apply Z.pow_pos_nonneg; lia).
  destruct signed, p; lia.
Qed.

Lemma in_range_u256 v : in_range false 256 v = true <-> (0 <= v < 2 ^ 256)%Z.
Proof. unfold in_range, int_min, int_max. change (Z.of_N 256) with 256%Z. lia. Qed.

Lemma in_range_i256 v : in_range true 256 v = true <-> (- 2 ^ 255 <= v < 2 ^ 255)%Z.
Proof. unfold in_range, int_min, int_max. change (Z.of_N (256 - 1)) with 255%Z. lia. Qed.

(** * the two loops

    Both run Horner's rule on the magnitude: from [sgz p * a] they reach
    [sgz p * horner radix dv a]. *)

Local Notation horner radix := (fold_left (fun a d : N => a * radix + d)).

Lemma additive_op_sgz p a radix x :
  additive_op p (sgz p * Z.of_N a * Z.of_N radix) x = (sgz p * Z.of_N (a * radix + x))%Z.
Proof. unfold additive_op, sgz. destruct p; lia. Qed.

Lemma unchecked_loop_spec radix p ds : forall a,
  run_unchecked_loop radix p ds (sgz p * Z.of_N a) =
  option_map (fun dv => (sgz p * Z.of_N (horner radix dv a))%Z)
             (digits_of radix ds).
Proof.
  induction ds as [|c r IH]; intros a; cbn [run_unchecked_loop digits_of]; [reflexivity|].
  destruct (to_digit radix c) as [x|]; [|reflexivity].
  rewrite additive_op_sgz, IH. destruct (digits_of radix r); reflexivity.
Qed.

Lemma horner_le radix dv : 1 <= radix -> forall a, a <= horner radix dv a.
Proof.
  intros Hr. induction dv as [|d l IH]; intros a; cbn [fold_left]; [lia|].
  specialize (IH (a * radix + d)). nia.
Qed.

(** The magnitude never decreases, so testing it against the bound at every step is the same as
    testing the final value. *)
Lemma checked_loop_spec signed bits radix p lim ds :
  1 <= radix -> (forall a, in_range signed bits (sgz p * Z.of_N a) = (a <=? lim)) ->
  forall a, a <= lim ->
  run_checked_loop signed bits radix p ds (sgz p * Z.of_N a) =
  match digits_of radix ds with
  | None => None
  | Some dv =>
      let m := horner radix dv a in
      if m <=? lim then Some (sgz p * Z.of_N m)%Z else None
  end.
Proof.
  intros Hr Hlim. induction ds as [|c r IH]; intros a Ha; cbn [run_checked_loop digits_of].
  - cbn [fold_left]. replace (a <=? lim) with true by lia. reflexivity.
  - destruct (to_digit radix c) as [x|]; [|reflexivity].
    rewrite additive_op_sgz, <- Z.mul_assoc, <- N2Z.inj_mul, !Hlim.
    destruct (N.leb_spec (a * radix + x) lim) as [Hx|Hx].
    + replace (a * radix <=? lim) with true by lia. rewrite IH by exact Hx.
      destruct (digits_of radix r); reflexivity.
    + destruct (digits_of radix r) as [dv|]; [|destruct (a * radix <=? lim); reflexivity].
      cbn [fold_left]. pose proof (horner_le radix dv Hr (a * radix + x)) as Hle.
      replace (horner radix dv (a * radix + x) <=? lim) with false by lia.
      destruct (a * radix <=? lim); reflexivity.
Qed.

Lemma can_not_overflow_in_range signed bits radix p ds dv :
  1 <= radix -> (signed = false -> p = true) ->
  can_not_overflow signed bits radix ds = true -> digits_of radix ds = Some dv ->
  in_range signed bits (sgz p * Z.of_N (of_digits radix dv)) = true.
Proof.
  unfold can_not_overflow. intros Hr1 Hp Hc Hd.
  apply andb_true_iff in Hc as [Hr Hl]. apply N.leb_le in Hr, Hl.
  apply digits_of_chars in Hd; [|lia].
  destruct (digit_chars_ok _ _ _ Hd) as [Hok HL].
  pose proof (of_digits_bound radix dv Hok) as Hb. rewrite HL in Hb.
  set (s := if signed then 1 else 0) in *.
  (* the value is below radix^length <= 16^K = 2^(4K), and 4K <= bits - s *)
  assert (Ho : of_digits radix dv < 2 ^ (bits - s)).
  { apply (N.lt_le_trans _ _ _ Hb). transitivity ((2 ^ 4) ^ (bits / 8 * 2 - s)).
    - apply N.pow_le_mono; [lia|exact Hr|exact Hl].
    - rewrite <- N.pow_mul_r. apply N.pow_le_mono_r; [lia|]. subst s. destruct signed; lia. }
  apply N2Z.inj_lt in Ho. rewrite N2Z.inj_pow in Ho. change (Z.of_N 2) with 2%Z in Ho.
  unfold in_range, int_min, int_max, sgz. subst s. destruct signed.
  - destruct p; lia.
  - rewrite (Hp eq_refl). rewrite N.sub_0_r in Ho. lia.
Qed.

(** * [from_str_radix] in closed form *)

Lemma loops_eq signed bits radix p ds :
  1 <= radix -> (signed = false -> p = true) ->
  (if can_not_overflow signed bits radix ds
   then run_unchecked_loop radix p ds 0%Z
   else run_checked_loop signed bits radix p ds 0%Z) =
  match digits_of radix ds with
  | None => None
  | Some dv =>
      let v := (sgz p * Z.of_N (of_digits radix dv))%Z in
      if in_range signed bits v then Some v else None
  end.
Proof.
  intros Hr Hp. replace 0%Z with (sgz p * Z.of_N 0)%Z by apply Z.mul_0_r.
  destruct (can_not_overflow signed bits radix ds) eqn:Ec.
  - rewrite unchecked_loop_spec. destruct (digits_of radix ds) as [dv|] eqn:Ed; [|reflexivity].
    cbv zeta. rewrite (can_not_overflow_in_range _ _ _ _ _ _ Hr Hp Ec Ed). reflexivity.
  - destruct (in_range_mag signed bits p) as [lim Hlim].
    rewrite (checked_loop_spec _ _ _ _ lim) by (assumption || apply N.le_0_l).
    destruct (digits_of radix ds) as [dv|]; [|reflexivity]. cbv zeta. rewrite Hlim. reflexivity.
Qed.

(** sign handling of [from_str_radix]: [(is_positive, prefixed_digits)] *)
Definition split_sign (signed : bool) (src : list N) : option (bool * list N) :=
  match src with
  | [] => None
  | c0 :: rest =>
      if ((c0 =? 43) || (c0 =? 45)) && (match rest with [] => true | _ => false end) then None
      else Some (if c0 =? 43 then (true, rest)
                 else if (c0 =? 45) && signed then (false, rest)
                 else (true, src))
  end.

(** an empty prefix is passed to [from_str_radix] as [None] *)
Definition opt_prefix (pfx : text) : option text := match pfx with [] => None | _ => Some pfx end.

(** [from_str_radix] without its loops ([from_str_radix_eq]): a sign, the prefix, a non-empty
    run of digits, and their value if it is in range *)
Definition parse_spec (signed : bool) (bits radix : N) (pfx s : text) : option Z :=
  match split_sign signed (utf8 s) with
  | None => None
  | Some (p, pd) =>
      match strip_prefix pfx pd with
      | None => None
      | Some [] => None
      | Some ds =>
          match digits_of radix ds with
          | None => None
          | Some dv =>
              let v := (sgz p * Z.of_N (of_digits radix dv))%Z in
              if in_range signed bits v then Some v else None
          end
      end
  end.

Lemma from_str_radix_eq signed bits radix pfx s :
  1 <= radix -> all_ascii pfx ->
  from_str_radix signed bits radix (opt_prefix pfx) s = parse_spec signed bits radix pfx s.
Proof.
  intros Hr Ha. unfold from_str_radix, parse_spec, split_sign. cbv zeta.
  destruct (utf8 s) as [|c0 rest]; [reflexivity|].
  destruct (((c0 =? 43) || (c0 =? 45)) && match rest with [] => true | _ :: _ => false end);
    [reflexivity|].
  (* the model's pairs are typed with [bytes] in one place: make both sides read alike *)
  change bytes with (list N).
  set (t := if c0 =? 43 then (true, rest) else if (c0 =? 45) && signed then (false, rest)
            else (true, c0 :: rest)).
  assert (Hp : signed = false -> fst t = true).
  { intros ->. subst t. rewrite andb_false_r. destruct (c0 =? 43); reflexivity. }
  destruct t as [p pd]. cbn [fst] in Hp.
  assert (Hq : match opt_prefix pfx with Some q => strip_prefix (utf8 q) pd | None => Some pd end
               = strip_prefix pfx pd).
  { destruct pfx; [reflexivity|]. cbn [opt_prefix]. rewrite (utf8_ascii _ Ha). reflexivity. }
  rewrite Hq. destruct (strip_prefix pfx pd) as [[|d ds]|]; try reflexivity.
  apply loops_eq; assumption.
Qed.

Lemma split_sign_sound signed src p pd :
  split_sign signed src = Some (p, pd) ->
  exists sign, src = sign ++ pd /\ sign_of signed sign (sgz p).
Proof.
  unfold split_sign. destruct src as [|c0 rest]; [discriminate|].
  destruct (((c0 =? 43) || (c0 =? 45)) && match rest with [] => true | _ :: _ => false end);
    [discriminate|].
  destruct (N.eqb_spec c0 43) as [->|H43].
  { intros [= <- <-]. exists [43]. split; [reflexivity|]. right; left; split; reflexivity. }
  destruct ((c0 =? 45) && signed) eqn:E; intros [= <- <-].
  - apply andb_true_iff in E as [E ->]. apply N.eqb_eq in E as ->.
    exists [45]. split; [reflexivity|]. right; right; repeat split; reflexivity.
  - exists []. split; [reflexivity|]. left; split; reflexivity.
Qed.

Lemma split_sign_complete signed sign sg rest :
  sign_of signed sign sg -> (exists c r, rest = c :: r /\ c <> 43 /\ c <> 45) ->
  exists p, split_sign signed (sign ++ rest) = Some (p, rest) /\ sgz p = sg.
Proof.
  intros Hs (c & r & -> & H43 & H45).
  destruct Hs as [(-> & ->) | [(-> & ->) | (-> & -> & ->)]].
  - exists true. split; [|reflexivity]. cbn [app split_sign].
    replace (c =? 43) with false by lia. replace (c =? 45) with false by lia. reflexivity.
  - exists true. split; reflexivity.
  - exists false. split; reflexivity.
Qed.

Lemma unsigned_sign sign sg : sign_of false sign sg -> sign = [] \/ sign = [43].
Proof. intros [(-> & _) | [(-> & _) | (Hf & _)]]; [left|right|discriminate Hf]; reflexivity. Qed.

(** * texts that denote an integer *)

Lemma prefix_radix_bin : prefix_radix (s2l "0b") 2.
Proof. left. split; reflexivity. Qed.

Lemma prefix_radix_oct : prefix_radix (s2l "0o") 8.
Proof. right; left. split; reflexivity. Qed.

Lemma prefix_radix_hex : prefix_radix (s2l "0x") 16.
Proof. right; right; left. split; reflexivity. Qed.

Lemma prefix_radix_dec : prefix_radix [] 10.
Proof. right; right; right. split; reflexivity. Qed.

Lemma prefix_radix_shape p r :
  prefix_radix p r -> 2 <= r <= 36 /\ ((p = [] /\ r = 10) \/ exists l, p = [48; l] /\ 97 <= l <= 122).
Proof.
  intros [(-> & ->) | [(-> & ->) | [(-> & ->) | (-> & ->)]]]; (split; [lia|]).
  - right. exists 98. split; [reflexivity|lia].
  - right. exists 111. split; [reflexivity|lia].
  - right. exists 120. split; [reflexivity|lia].
  - left. split; reflexivity.
Qed.

Lemma prefix_radix_fun p r r' : prefix_radix p r -> prefix_radix p r' -> r = r'.
Proof.
  intros [(-> & ->) | [(-> & ->) | [(-> & ->) | (-> & ->)]]]
         [(E & ->) | [(E & ->) | [(E & ->) | (E & ->)]]]; (reflexivity || discriminate E).
Qed.

(** the text does not start with one of the three radix prefixes *)
Definition no_radix_prefix (body : text) : Prop :=
  forall t, body <> s2l "0b" ++ t /\ body <> s2l "0o" ++ t /\ body <> s2l "0x" ++ t.

Lemma no_radix_prefix_inv body p r t :
  no_radix_prefix body -> prefix_radix p r -> body = p ++ t -> p = [].
Proof.
  intros H [(-> & _) | [(-> & _) | [(-> & _) | (-> & _)]]] E; [exfalso..|reflexivity];
    destruct (H t) as (Hb & Ho & Hx); auto.
Qed.

(** a letter in second place is no decimal digit *)
Lemma decimal_second l t dv : 57 < l -> ~ Forall2 (digit_char 10) (48 :: l :: t) dv.
Proof.
  intros Hl H. inversion H as [|? ? ? ? _ H2]; subst. inversion H2 as [|? d ? ? Hd _]; subst.
  unfold digit_char in Hd. lia.
Qed.

Lemma decimal_no_radix_prefix ds dv : Forall2 (digit_char 10) ds dv -> no_radix_prefix ds.
Proof. intros H t. repeat split; intros ->; revert H; apply decimal_second; reflexivity. Qed.

(** [pfx ++ body] splits in one way only, provided that [body], where it stands for a decimal
    number, starts with no radix prefix; the other side has to be a digit string. *)
Lemma prefix_unique pfx radix body pfx' radix' ds' dv' :
  prefix_radix pfx radix -> (pfx = [] -> no_radix_prefix body) ->
  prefix_radix pfx' radix' -> Forall2 (digit_char radix') ds' dv' ->
  pfx ++ body = pfx' ++ ds' -> radix = radix' /\ body = ds'.
Proof.
  intros Hp Hbody Hp' Hch E.
  assert (Hpp : pfx = pfx').
  { destruct (prefix_radix_shape _ _ Hp) as [_ [(-> & _) | (l & -> & Hl)]].
    - symmetry. exact (no_radix_prefix_inv body pfx' radix' ds' (Hbody eq_refl) Hp' E).
    - destruct (prefix_radix_shape _ _ Hp') as [_ [(-> & ->) | (l' & -> & _)]]; cbn [app] in E.
      + subst ds'. destruct (decimal_second l body dv' ltac:(lia) Hch).
      + injection E as -> _. reflexivity. }
  subst pfx'. apply app_inv_head in E. split; [|exact E].
  exact (prefix_radix_fun pfx radix radix' Hp Hp').
Qed.

(** characters that are a digit in some radix up to 36: [0-9a-zA-Z] *)
Definition alnum (c : N) : Prop := exists d, digit_char 36 c d.

Lemma alnum_facts c : alnum c -> c < 128 /\ c <> 43 /\ c <> 45.
Proof. unfold alnum, digit_char. intros [d H]. lia. Qed.

Lemma body_alnum pfx radix ds dv :
  prefix_radix pfx radix -> Forall2 (digit_char radix) ds dv -> Forall alnum (pfx ++ ds).
Proof.
  intros Hpr Hch. destruct (prefix_radix_shape _ _ Hpr) as [Hr Hp]. apply Forall_app; split.
  - destruct Hp as [(-> & _) | (l & -> & Hl)]; [constructor|].
    constructor; [exists 0|constructor; [exists (l - 87)|constructor]]; unfold digit_char; lia.
  - revert Hch. apply Forall2_Forall_l. intros c d [Hd H]. exists d. split; [lia|exact H].
Qed.

Lemma denoted_ascii signed sign sg pfx radix ds dv :
  sign_of signed sign sg -> prefix_radix pfx radix -> Forall2 (digit_char radix) ds dv ->
  all_ascii (sign ++ pfx ++ ds).
Proof.
  intros Hsign Hpr Hch. apply Forall_app; split.
  - destruct Hsign as [(-> & _) | [(-> & _) | (_ & -> & _)]]; repeat constructor; cbn; lia.
  - generalize (body_alnum _ _ _ _ Hpr Hch). apply Forall_impl. intros c Hc. apply alnum_facts, Hc.
Qed.

(** what follows the sign does not look like a sign *)
Lemma head_not_sign pfx radix ds dv :
  prefix_radix pfx radix -> ds <> [] -> Forall2 (digit_char radix) ds dv ->
  exists c r, pfx ++ ds = c :: r /\ c <> 43 /\ c <> 45.
Proof.
  intros Hpr Hne Hch. pose proof (body_alnum _ _ _ _ Hpr Hch) as Hall.
  destruct (pfx ++ ds) as [|c r] eqn:E; [apply app_eq_nil in E as [_ E]; contradiction|].
  exists c, r. split; [reflexivity|]. apply alnum_facts, (Forall_inv Hall).
Qed.

Lemma text_denotes_chars s v :
  text_denotes false s v -> Forall alnum s \/ exists rest, s = 43 :: rest /\ Forall alnum rest.
Proof.
  intros (sign & sg & pfx & radix & ds & dv & -> & Hsign & Hpr & _ & Hch & _).
  pose proof (body_alnum _ _ _ _ Hpr Hch) as Hrest.
  destruct (unsigned_sign _ _ Hsign) as [-> | ->]; [left; exact Hrest|right].
  exists (pfx ++ ds). split; [reflexivity|exact Hrest].
Qed.

Lemma text_denotes_unique signed s v v' :
  text_denotes signed s v -> text_denotes signed s v' -> v = v'.
Proof.
  intros (sign & sg & pfx & radix & ds & dv & -> & Hsign & Hpr & Hne & Hch & ->)
         (sign' & sg' & pfx' & radix' & ds' & dv' & E & Hsign' & Hpr' & Hne' & Hch' & ->).
  (* [split_sign] finds the sign of both readings *)
  destruct (split_sign_complete signed sign sg _ Hsign (head_not_sign _ _ _ _ Hpr Hne Hch))
    as (p & Hp & <-).
  destruct (split_sign_complete signed sign' sg' _ Hsign' (head_not_sign _ _ _ _ Hpr' Hne' Hch'))
    as (p' & Hp' & <-).
  rewrite <- E, Hp in Hp'. injection Hp' as <- E'.
  destruct (prefix_unique pfx radix ds pfx' radix' ds' dv' Hpr) as (<- & <-); try assumption.
  - intros ->. destruct (prefix_radix_shape _ _ Hpr) as [_ [(_ & ->) | (l & Hl & _)]];
      [exact (decimal_no_radix_prefix _ _ Hch)|discriminate Hl].
  - destruct (prefix_radix_shape _ _ Hpr) as [Hr _].
    apply digits_of_chars in Hch, Hch'; try lia. rewrite Hch in Hch'. injection Hch' as <-.
    reflexivity.
Qed.

(** * [from_str_prefixed] *)

(** one try of [from_str_prefixed]; the pairs it tries are those of [prefix_radix] *)
Definition attempt (signed : bool) (s pfx : text) (radix : N) : option Z :=
  from_str_radix signed 256 radix (opt_prefix pfx) s.

Lemma attempt_eq signed s pfx radix :
  prefix_radix pfx radix -> attempt signed s pfx radix = parse_spec signed 256 radix pfx s.
Proof.
  intros Hpr. destruct (prefix_radix_shape _ _ Hpr) as [Hr Hp]. apply from_str_radix_eq; [lia|].
  destruct Hp as [(-> & _) | (l & -> & Hl)]; repeat constructor; lia.
Qed.

Lemma attempt_sound signed s pfx radix v :
  prefix_radix pfx radix -> attempt signed s pfx radix = Some v ->
  text_denotes signed s v /\ in_range signed 256 v = true.
Proof.
  intros Hpr H. destruct (prefix_radix_shape _ _ Hpr) as [Hr _].
  rewrite attempt_eq in H by exact Hpr. unfold parse_spec in H.
  destruct (split_sign signed (utf8 s)) as [[p pd]|] eqn:Es; [|discriminate].
  apply split_sign_sound in Es as (sign & Hs & Hsign).
  destruct (strip_prefix pfx pd) as [ds|] eqn:Ep; [|discriminate].
  apply strip_prefix_some in Ep as ->.
  destruct ds as [|d ds]; [discriminate|].
  destruct (digits_of radix (d :: ds)) as [dv|] eqn:Ed; [|discriminate]. cbv zeta in H.
  destruct (in_range signed 256 (sgz p * Z.of_N (of_digits radix dv))) eqn:Ei; [|discriminate].
  injection H as <-. split; [|exact Ei]. apply digits_of_chars in Ed; [|lia].
  exists sign, (sgz p), pfx, radix, (d :: ds), dv. repeat split; try assumption; try discriminate.
  rewrite <- Hs. symmetry. apply utf8_ascii_inv. rewrite Hs.
  exact (denoted_ascii _ _ _ _ _ _ _ Hsign Hpr Ed).
Qed.

Lemma attempt_complete signed pfx radix sign sg ds dv :
  prefix_radix pfx radix -> sign_of signed sign sg -> ds <> [] -> Forall2 (digit_char radix) ds dv ->
  let v := (sg * Z.of_N (of_digits radix dv))%Z in
  in_range signed 256 v = true -> attempt signed (sign ++ pfx ++ ds) pfx radix = Some v.
Proof.
  intros Hpr Hsign Hne Hch v Hin. destruct (prefix_radix_shape _ _ Hpr) as [Hr _].
  rewrite attempt_eq by exact Hpr. unfold parse_spec.
  rewrite (utf8_ascii _ (denoted_ascii _ _ _ _ _ _ _ Hsign Hpr Hch)).
  destruct (split_sign_complete signed sign sg _ Hsign (head_not_sign _ _ _ _ Hpr Hne Hch))
    as (p & -> & Hp).
  rewrite strip_prefix_app. destruct ds as [|d ds]; [congruence|].
  rewrite (proj2 (digits_of_chars radix _ dv ltac:(lia)) Hch). cbv zeta. rewrite Hp. fold v.
  rewrite Hin. reflexivity.
Qed.

Lemma from_str_prefixed_eq signed s :
  from_str_prefixed signed s =
  or_else (or_else (or_else
    (attempt signed s (s2l "0b") 2)
    (fun _ => attempt signed s (s2l "0o") 8))
    (fun _ => attempt signed s (s2l "0x") 16))
    (fun _ => attempt signed s [] 10).
Proof. reflexivity. Qed.

Lemma from_str_prefixed_cases signed s :
  match from_str_prefixed signed s with
  | Some v => exists pfx radix, prefix_radix pfx radix /\ attempt signed s pfx radix = Some v
  | None => forall pfx radix, prefix_radix pfx radix -> attempt signed s pfx radix = None
  end.
Proof.
  rewrite from_str_prefixed_eq. unfold or_else.
  destruct (attempt signed s (s2l "0b") 2) eqn:E1; [eauto using prefix_radix_bin|].
  destruct (attempt signed s (s2l "0o") 8) eqn:E2; [eauto using prefix_radix_oct|].
  destruct (attempt signed s (s2l "0x") 16) eqn:E3; [eauto using prefix_radix_hex|].
  destruct (attempt signed s [] 10) eqn:E4; [eauto using prefix_radix_dec|].
  intros pfx radix [(-> & ->) | [(-> & ->) | [(-> & ->) | (-> & ->)]]]; assumption.
Qed.

Lemma from_str_prefixed_iff signed s v :
  from_str_prefixed signed s = Some v <-> text_denotes signed s v /\ in_range signed 256 v = true.
Proof.
  pose proof (from_str_prefixed_cases signed s) as C.
  assert (S : forall w, from_str_prefixed signed s = Some w ->
                        text_denotes signed s w /\ in_range signed 256 w = true).
  { intros w H. rewrite H in C. destruct C as (pfx & radix & Hpr & Ha).
    exact (attempt_sound _ _ _ _ _ Hpr Ha). }
  split; [apply S|]. intros [Hd Hin].
  destruct (from_str_prefixed signed s) as [w|].
  - f_equal. exact (text_denotes_unique _ _ _ _ (proj1 (S w eq_refl)) Hd).
  - destruct Hd as (sign & sg & pfx & radix & ds & dv & -> & Hsign & Hpr & Hne & Hch & ->).
    specialize (C pfx radix Hpr).
    rewrite (attempt_complete signed pfx radix sign sg ds dv Hpr Hsign Hne Hch Hin) in C.
    discriminate C.
Qed.

(** * [permissive_u256] by kind of token *)

Lemma f64_to_int_iff m e i :
  f64_to_int m e = Some i <-> denotes_int false (JF64 m e) i /\ (- 2 ^ 53 <= i < 2 ^ 53)%Z.
Proof.
  unfold f64_to_int, denotes_int. destruct (Z.leb_spec 0 e) as [He|He]; cbv zeta.
  - rewrite guard_some. lia.
  - assert (Hd : (0 < 2 ^ (- e))%Z) by (apply Z.pow_pos_nonneg; lia).
    set (d := (2 ^ (- e))%Z) in *.
    destruct ((- 2 ^ 53 * d <=? m) && (m <? 2 ^ 53 * d))%Z eqn:Ew.
    + rewrite guard_some, Z.eqb_eq. split.
      * intros [Eq <-]. split; [right; split; [exact He|symmetry; exact Eq]|].
        rewrite <- Eq in Ew. nia.
      * intros [[(He' & _) | (_ & ->)] _]; [lia|]. rewrite Z.quot_mul by lia. split; reflexivity.
    + split; [discriminate|]. intros [[(He' & _) | (_ & ->)] Hw]; [lia|nia].
Qed.

Lemma f64_denotes_sign m e i : denotes_int false (JF64 m e) i -> ((m < 0)%Z <-> (i < 0)%Z).
Proof.
  unfold denotes_int. intros [(He & ->) | (He & ->)].
  - assert (0 < 2 ^ e)%Z by (apply Z.pow_pos_nonneg; lia). nia.
  - assert (0 < 2 ^ (- e))%Z by (apply Z.pow_pos_nonneg; lia). nia.
Qed.

Lemma f64_denotes_unique m e i i' :
  denotes_int false (JF64 m e) i -> denotes_int false (JF64 m e) i' -> i = i'.
Proof.
  unfold denotes_int. intros [(He & ->) | (He & H1)] [(He' & ->) | (He' & H2)]; try lia.
  assert (0 < 2 ^ (- e))%Z by (apply Z.pow_pos_nonneg; lia). nia.
Qed.

Lemma pow2_256_N : Z.of_N (2 ^ 256) = (2 ^ 256)%Z.
Proof. reflexivity. Qed.

Lemma as_u256_small i : (0 <= i < 2 ^ 256)%Z -> as_u256 i = Z.to_N i.
Proof. intros H. unfold as_u256. rewrite Z.mod_small by exact H. reflexivity. Qed.

Lemma permissive_u256_total j : graceful (permissive_u256 j).
Proof.
  unfold permissive_u256. destruct (is_negative_number j); [apply graceful_err|].
  destruct j; cbn [ethnum_permissive_u256]; try apply graceful_err; try apply graceful_ok.
  - destruct (f64_to_int m e); [apply graceful_ok|apply graceful_err].
  - destruct (from_str_prefixed false s); [apply graceful_ok|apply graceful_err].
Qed.

(** every rejection below is "no value can be the result" *)
Lemma reject_unless j : (forall v, permissive_u256 j <> Ok v) -> permissive_u256 j = Err.
Proof. apply graceful_not_ok_err, permissive_u256_total. Qed.

Lemma reject_negative j : is_negative_number j = true -> permissive_u256 j = Err.
Proof. unfold permissive_u256. intros ->. reflexivity. Qed.

Lemma f64_iff m e v :
  permissive_u256 (JF64 m e) = Ok v <-> denotes_int false (JF64 m e) (Z.of_N v) /\ v < 2 ^ 53.
Proof.
  unfold permissive_u256. cbn [is_negative_number ethnum_permissive_u256]. split.
  - intros H. destruct (Z.ltb_spec m 0) as [|Hm]; [discriminate|].
    destruct (f64_to_int m e) as [i|] eqn:Ef; [|discriminate].
    apply f64_to_int_iff in Ef as [Hden Hw]. pose proof (f64_denotes_sign m e i Hden) as Hsg.
    rewrite as_u256_small in H by lia. injection H as <-.
    rewrite Z2N.id by lia. split; [exact Hden|lia].
  - intros [Hden Hv]. pose proof (f64_denotes_sign m e _ Hden) as Hsg.
    replace (m <? 0)%Z with false by lia.
    rewrite (proj2 (f64_to_int_iff m e (Z.of_N v))) by (split; [exact Hden|lia]).
    rewrite as_u256_small, N2Z.id by lia. reflexivity.
Qed.

Lemma string_iff s v :
  permissive_u256 (JStr s) = Ok v <-> text_denotes false s (Z.of_N v) /\ v < 2 ^ 256.
Proof.
  unfold permissive_u256. cbn [is_negative_number ethnum_permissive_u256]. split.
  - intros H. destruct (from_str_prefixed false s) as [z|] eqn:Ep; [|discriminate].
    injection H as <-. apply from_str_prefixed_iff in Ep as [Hden Hin]. apply in_range_u256 in Hin.
    rewrite Z2N.id by lia. split; [exact Hden|lia].
  - intros [Hden Hv]. rewrite (proj2 (from_str_prefixed_iff false s (Z.of_N v))).
    + rewrite N2Z.id. reflexivity.
    + split; [exact Hden|]. apply in_range_u256. lia.
Qed.

Lemma exact j v :
  num_token_ok j -> permissive_u256 j = Ok v ->
  denotes_int false j (Z.of_N v) /\ v < 2 ^ 256.
Proof.
  destruct j as [| b | n | z | m e | s | l | kvs]; cbn [num_token_ok denotes_int]; intros Htok H;
    try discriminate.
  - injection H as <-. split; [reflexivity|lia].
  - rewrite reject_negative in H; [discriminate|]. apply Z.ltb_lt, Htok.
  - apply f64_iff in H as [Hden Hv]. split; [exact Hden|lia].
  - apply string_iff. exact H.
Qed.

(** * spellings of an integer *)

Lemma hex_digit_char d : d < 16 -> digit_char 16 (hex_digit d) d.
Proof. intros Hd. unfold digit_char, hex_digit. destruct (N.ltb_spec d 10); lia. Qed.

Lemma hex_digit_upper_char d : d < 16 -> digit_char 16 (hex_digit_upper d) d.
Proof. intros Hd. unfold digit_char, hex_digit_upper. destruct (N.ltb_spec d 10); lia. Qed.

Lemma digit_char_to_upper radix c d :
  radix <= 36 -> digit_char radix c d -> digit_char radix (to_upper c) d.
Proof.
  unfold digit_char, to_upper, is_lower. intros Hr H.
  destruct ((97 <=? c) && (c <=? 122)) eqn:E; lia.
Qed.

Lemma unsigned_denotes signed pfx radix ds dv :
  prefix_radix pfx radix -> ds <> [] -> Forall2 (digit_char radix) ds dv ->
  text_denotes signed (pfx ++ ds) (Z.of_N (of_digits radix dv)).
Proof.
  intros Hpr Hne Hch. exists [], 1%Z, pfx, radix, ds, dv.
  repeat split; try assumption; [left; split; reflexivity|lia].
Qed.

Lemma spelled_denotes signed pfx radix f dv :
  prefix_radix pfx radix -> dv <> [] -> digits_ok radix dv ->
  (forall d, d < radix -> digit_char radix (f d) d) ->
  text_denotes signed (pfx ++ map f dv) (Z.of_N (of_digits radix dv)).
Proof.
  intros Hpr Hne Hok Hf. apply unsigned_denotes; [exact Hpr| |apply digits_spelled; assumption].
  intros E. apply map_eq_nil in E. exact (Hne E).
Qed.

(** the shortest spelling, as [decimal] and [hex_min] build it *)
Lemma min_spelled_denotes signed pfx radix f v :
  prefix_radix pfx radix -> (forall d, d < radix -> digit_char radix (f d) d) -> f 0 = 48 ->
  text_denotes signed (pfx ++ if v =? 0 then [48] else map f (to_digits radix v)) (Z.of_N v).
Proof.
  intros Hpr Hf H0. destruct (prefix_radix_shape _ _ Hpr) as [Hr _].
  destruct (N.eqb_spec v 0) as [->|Hv].
  - rewrite <- H0. apply (spelled_denotes signed pfx radix f [0] Hpr); [discriminate| |exact Hf].
    constructor; [lia|constructor].
  - rewrite <- (of_to_digits radix v) at 2 by lia.
    apply (spelled_denotes signed pfx radix f _ Hpr); [apply to_digits_nonempty|apply to_digits_ok|exact Hf]; lia.
Qed.

Lemma decimal_denotes signed v : text_denotes signed (decimal v) (Z.of_N v).
Proof.
  apply (min_spelled_denotes signed [] 10 (fun d => 48 + d)); [exact prefix_radix_dec| |reflexivity].
  unfold digit_char. lia.
Qed.

Lemma hex_min_denotes signed upper v : text_denotes signed (s2l "0x" ++ hex_min upper v) (Z.of_N v).
Proof.
  apply min_spelled_denotes; [exact prefix_radix_hex| |destruct upper; reflexivity].
  destruct upper; [exact hex_digit_upper_char|exact hex_digit_char].
Qed.

Lemma hex_encode_nibbles bs : hex_encode bs = map hex_digit (nibbles bs).
Proof.
  induction bs as [|b r IH]; [reflexivity|]. cbn [hex_encode nibbles flat_map app map].
  fold (nibbles r). rewrite IH. reflexivity.
Qed.

Lemma nibbles_ok bs : bytes_ok bs -> digits_ok 16 (nibbles bs).
Proof.
  induction 1 as [|b r Hb _ IH]; [constructor|]. cbn [nibbles flat_map app]. fold (nibbles r).
  constructor; [lia|]. constructor; [lia|exact IH].
Qed.

Lemma nibbles_value bs : of_digits 16 (nibbles bs) = of_digits 256 bs.
Proof.
  induction bs as [|b r IH] using rev_ind; [reflexivity|].
  unfold nibbles. rewrite flat_map_app, of_digits_snoc. cbn [flat_map app].
  change [b / 16; b mod 16] with ([b / 16] ++ [b mod 16]). rewrite app_assoc, !of_digits_snoc.
  fold (nibbles r). rewrite IH. lia.
Qed.

(** 64 digits with leading zeros, in lower and in upper case *)
Lemma hex_fixed_denotes signed v :
  v < 2 ^ 256 ->
  text_denotes signed (s2l "0x" ++ hex_encode (be_fixed 32 v)) (Z.of_N v)
  /\ text_denotes signed (s2l "0x" ++ map to_upper (hex_encode (be_fixed 32 v))) (Z.of_N v).
Proof.
  intros Hv. rewrite hex_encode_nibbles, map_map.
  rewrite <- (be_val_fixed 32 v) at 2 4 by (rewrite pow256_32; exact Hv).
  unfold be_val. rewrite <- nibbles_value.
  assert (Hne : nibbles (be_fixed 32 v) <> []).
  { intros E. pose proof (be_fixed_length 32 v) as HL.
    destruct (be_fixed 32 v); [discriminate HL|discriminate E]. }
  pose proof (nibbles_ok _ (be_fixed_ok 32 v)) as Hok.
  split; apply (spelled_denotes signed _ 16 _ _ prefix_radix_hex Hne Hok); [exact hex_digit_char|].
  intros d Hd. apply digit_char_to_upper; [lia|exact (hex_digit_char d Hd)].
Qed.

(** * rejected strings *)

Lemma reject_not_number s : (forall v, ~ text_denotes false s v) -> permissive_u256 (JStr s) = Err.
Proof. intros H. apply reject_unless. intros v E. apply string_iff in E as [Hd _]. exact (H _ Hd). Qed.

Lemma reject_too_big s v : text_denotes false s v -> (2 ^ 256 <= v)%Z -> permissive_u256 (JStr s) = Err.
Proof.
  intros Hd Hv. apply reject_unless. intros w E. apply string_iff in E as [Hd' Hw].
  rewrite (text_denotes_unique false s v _ Hd Hd') in Hv. lia.
Qed.

Lemma reject_too_big_N s v :
  text_denotes false s (Z.of_N v) -> 2 ^ 256 <= v -> permissive_u256 (JStr s) = Err.
Proof. intros Hd Hv. apply (reject_too_big s (Z.of_N v) Hd). lia. Qed.

Lemma reject_big_float m e i :
  denotes_int false (JF64 m e) i -> (2 ^ 53 <= i)%Z -> permissive_u256 (JF64 m e) = Err.
Proof.
  intros Hd Hi. apply reject_unless. intros v E. apply f64_iff in E as [Hd' Hv].
  rewrite (f64_denotes_unique m e i _ Hd Hd') in Hi. lia.
Qed.

Lemma reject_bad_char a c b :
  ~ alnum c -> (a = [] -> c <> 43) -> permissive_u256 (JStr (a ++ c :: b)) = Err.
Proof.
  intros Hc Ha. apply reject_not_number. intros v Hd.
  apply text_denotes_chars in Hd as [Hall | (rest & E & Hall)].
  - exact (Hc (Forall_elt _ _ _ Hall)).
  - destruct a as [|x a]; injection E as -> <-; [exact (Ha eq_refl eq_refl)|].
    exact (Hc (Forall_elt _ _ _ Hall)).
Qed.

(** a character that is not a digit of the radix selected by the prefix (for a decimal number:
    where the digits start with neither [+] nor something that reads as a radix prefix) *)
Lemma reject_bad_digit_gen sign sg pfx radix a c b :
  sign_of false sign sg -> prefix_radix pfx radix ->
  (pfx = [] -> forall r, a ++ c :: b <> 43 :: r) ->
  (pfx = [] -> no_radix_prefix (a ++ c :: b)) ->
  (forall d, ~ digit_char radix c d) ->
  permissive_u256 (JStr (sign ++ pfx ++ a ++ c :: b)) = Err.
Proof.
  intros Hsign Hpr Hplus Hnop Hc. apply reject_not_number.
  intros v (sign' & sg' & pfx' & radix' & ds' & dv' & E & Hsign' & Hpr' & Hne' & Hch' & _).
  assert (E' : pfx ++ a ++ c :: b = pfx' ++ ds').
  { destruct (head_not_sign _ _ _ _ Hpr' Hne' Hch') as (x & r & Ex & Hx & _).
    destruct (unsigned_sign _ _ Hsign) as [-> | ->], (unsigned_sign _ _ Hsign') as [-> | ->];
      cbn [app] in E.
    - exact E.
    - exfalso. destruct (prefix_radix_shape _ _ Hpr) as [_ [(-> & _) | (l & -> & _)]];
        [exact (Hplus eq_refl _ E)|discriminate E].
    - exfalso. rewrite Ex in E. injection E as E _. exact (Hx (eq_sym E)).
    - injection E as E. exact E. }
  destruct (prefix_unique pfx radix (a ++ c :: b) pfx' radix' ds' dv' Hpr) as (<- & <-);
    try assumption.
  apply Forall2_app_inv_l in Hch' as (l1 & l2 & _ & H2 & _).
  inversion H2 as [|? d ? ? Hcd _]; subst. exact (Hc d Hcd).
Qed.

(** * byte fields *)

(** the shape shared by [bytes_field], [bytearray_field] and [address_field]: a string, the
    prefix [0x], then a decoder *)
Definition hex_field {A} (dec : text -> option A) (j : json) : outcome A :=
  match j with
  | JStr s =>
      match strip_prefix (s2l "0x") s with
      | Some rest => of_option (dec rest)
      | None => Err
      end
  | _ => Err
  end.

Lemma hex_field_iff {A} (dec : text -> option A) j a :
  hex_field dec j = Ok a <-> exists s, j = JStr (s2l "0x" ++ s) /\ dec s = Some a.
Proof.
  split.
  - destruct j as [| | | | | s | |]; try discriminate. cbn [hex_field].
    destruct (strip_prefix (s2l "0x") s) as [rest|] eqn:E; [|discriminate].
    apply strip_prefix_some in E as ->. destruct (dec rest) eqn:Ed; [|discriminate].
    intros [= ->]. eauto.
  - intros (s & -> & H). cbn [hex_field]. rewrite strip_prefix_app, H. reflexivity.
Qed.

Lemma hex_field_total {A} (dec : text -> option A) j : graceful (hex_field dec j).
Proof.
  destruct j; try apply graceful_err. cbn [hex_field].
  destruct (strip_prefix (s2l "0x") s); [apply graceful_of_option|apply graceful_err].
Qed.

Lemma bytes_iff j b :
  bytes_field j = Ok b <-> exists s, j = JStr (s2l "0x" ++ s) /\ hex_decode (utf8 s) = Some b.
Proof. exact (hex_field_iff (fun s => hex_decode (utf8 s)) j b). Qed.

Lemma bytes_sound j b :
  bytes_field j = Ok b ->
  bytes_ok b /\ exists s, j = JStr (s2l "0x" ++ s) /\ map to_lower s = hex_encode b
                          /\ length s = (2 * length b)%nat.
Proof.
  intros H. apply bytes_iff in H as (s & -> & H). rewrite (hex_decode_utf8 _ _ H) in H.
  destruct (hex_decode_sound _ _ H) as (H1 & H2 & H3). eauto.
Qed.

Lemma bytes_complete b s :
  bytes_ok b -> map to_lower s = hex_encode b -> bytes_field (JStr (s2l "0x" ++ s)) = Ok b.
Proof.
  intros Hb Hs. apply bytes_iff. exists s. split; [reflexivity|].
  pose proof (hex_decode_complete s b Hb Hs) as Hd.
  rewrite (utf8_ascii s (all_hex_ascii _ (hex_decode_all_hex _ _ Hd))). exact Hd.
Qed.

Lemma bytearray_eq k j :
  bytearray_field k j = bind (bytes_field j) (fun b => if Nat.eqb (length b) k then Ok b else Err).
Proof.
  destruct j as [| | | | | s | |]; try reflexivity. cbn [bytearray_field bytes_field].
  destruct (strip_prefix (s2l "0x") s) as [rest|]; [|reflexivity].
  unfold hex_decode_fixed. destruct (hex_decode (utf8 rest)) as [b|]; [|reflexivity].
  cbn [of_option bind]. destruct (Nat.eqb (length b) k); reflexivity.
Qed.

Lemma bytearray_sound k j b :
  bytearray_field k j = Ok b -> length b = k /\ bytes_field j = Ok b.
Proof.
  rewrite bytearray_eq. intros H. apply bind_ok in H as (b' & Hb & H).
  destruct (Nat.eqb_spec (length b') k); [|discriminate]. injection H as <-. auto.
Qed.

(** addresses: [0x], one more optional [0x], exactly 40 hex digits of either case *)
Lemma ethaddr_hex_decode_iff k s b :
  ethaddr_hex_decode k s = Some b <->
  exists h, (s = h \/ s = s2l "0x" ++ h) /\ length h = (k * 2)%nat /\ hex_decode h = Some b.
Proof.
  unfold ethaddr_hex_decode. split.
  - set (h := match strip_prefix (s2l "0x") s with Some r => r | None => s end).
    assert (Hs : s = h \/ s = s2l "0x" ++ h).
    { subst h. destruct (strip_prefix (s2l "0x") s) as [r|] eqn:E; [|left; reflexivity].
      right. apply strip_prefix_some. exact E. }
    clearbody h. destruct (Nat.eqb_spec (length (utf8 h)) (k * 2)) as [Hl|]; [|discriminate].
    intros Hd. pose proof (hex_decode_utf8 _ _ Hd) as Hu. rewrite Hu in Hd, Hl. eauto.
  - intros (h & Hs & Hl & Hd). pose proof (hex_decode_all_hex _ _ Hd) as Hx.
    replace (match strip_prefix (s2l "0x") s with Some r => r | None => s end) with h.
    + rewrite (utf8_ascii h (all_hex_ascii _ Hx)), Hl, Nat.eqb_refl. exact Hd.
    + destruct Hs as [-> | ->]; [rewrite (all_hex_no_0x _ Hx)|rewrite strip_prefix_app]; reflexivity.
Qed.

Lemma address_iff j b :
  address_field j = Ok b <->
  exists s, j = JStr (s2l "0x" ++ s) /\ ethaddr_hex_decode 20 s = Some b.
Proof. exact (hex_field_iff (ethaddr_hex_decode 20) j b). Qed.

Lemma address_sound j b :
  address_field j = Ok b ->
  length b = 20%nat /\ bytes_ok b /\
  exists s, (j = JStr (s2l "0x" ++ s) \/ j = JStr (s2l "0x0x" ++ s))
            /\ length s = 40%nat /\ map to_lower s = hex_encode b.
Proof.
  intros H. apply address_iff in H as (s & -> & H).
  apply ethaddr_hex_decode_iff in H as (h & Hs & Hl & Hd).
  destruct (hex_decode_sound _ _ Hd) as (Hok & Hlow & Hlen).
  split; [lia|]. split; [exact Hok|]. exists h. split; [|split; assumption].
  destruct Hs as [-> | ->]; [left|right]; reflexivity.
Qed.

Lemma address_complete b s :
  bytes_ok b -> length b = 20%nat -> map to_lower s = hex_encode b ->
  address_field (JStr (s2l "0x" ++ s)) = Ok b /\ address_field (JStr (s2l "0x0x" ++ s)) = Ok b.
Proof.
  intros Hb Hl Hs.
  assert (H : forall t, t = s \/ t = s2l "0x" ++ s -> address_field (JStr (s2l "0x" ++ t)) = Ok b).
  { intros t Ht. apply address_iff. exists t. split; [reflexivity|].
    apply ethaddr_hex_decode_iff. exists s. split; [exact Ht|].
    split; [|apply hex_decode_complete; assumption].
    rewrite <- (map_length to_lower), Hs, hex_encode_length, Hl. reflexivity. }
  split; [apply H; left; reflexivity|]. apply (H (s2l "0x" ++ s)). right. reflexivity.
Qed.

(** * optional fields and the chain id *)

(** the shape shared by [numopt] and [opt_address_field]: absent or [null] is [None] *)
Definition opt_field {A} (f : json -> outcome A) (j : option json) : outcome (option A) :=
  match j with
  | None | Some JNull => Ok None
  | Some j => omap Some (f j)
  end.

Lemma opt_field_some {A} (f : json -> outcome A) j a :
  opt_field f j = Ok (Some a) -> exists j', j = Some j' /\ f j' = Ok a.
Proof.
  destruct j as [j'|]; [|discriminate]. intros H. exists j'. split; [reflexivity|].
  destruct j'; try discriminate H; apply omap_ok in H as (a' & H & [= ->]); exact H.
Qed.

Lemma opt_field_of {A} (f : json -> outcome A) j a :
  j <> JNull -> f j = Ok a -> opt_field f (Some j) = Ok (Some a).
Proof. intros Hn H. destruct j; try congruence; cbn [opt_field]; rewrite H; reflexivity. Qed.

Lemma opt_field_total {A} (f : json -> outcome A) j :
  (forall j', graceful (f j')) -> graceful (opt_field f j).
Proof.
  intros Hf. destruct j as [j|]; [|apply graceful_ok].
  destruct j; try apply graceful_ok; apply graceful_omap, Hf.
Qed.

Lemma opt_address_sound j b :
  opt_address_field j = Ok (Some b) -> exists j', j = Some j' /\ address_field j' = Ok b.
Proof. exact (opt_field_some address_field j b). Qed.

Lemma opt_address_none : opt_address_field None = Ok None /\ opt_address_field (Some JNull) = Ok None.
Proof. split; reflexivity. Qed.

Lemma numopt_some j c : numopt j = Ok (Some c) -> exists j', j = Some j' /\ permissive_u256 j' = Ok c.
Proof. exact (opt_field_some permissive_u256 j c). Qed.

Lemma numopt_of j c : j <> JNull -> permissive_u256 j = Ok c -> numopt (Some j) = Ok (Some c).
Proof. exact (opt_field_of permissive_u256 j c). Qed.

(** [c > (U256::MAX - 36) / 2] fails exactly when [35 + 2 * c + 1] fits 256 bits *)
Lemma chainid_max_spec c : (chainid_max <? c) = false <-> 2 * c + 36 < 2 ^ 256.
Proof. unfold chainid_max. lia. Qed.

Lemma chainid_iff j c :
  chainid_field j = Ok (Some c) <-> numopt j = Ok (Some c) /\ 2 * c + 36 < 2 ^ 256.
Proof.
  unfold chainid_field. rewrite bind_ok_iff. split.
  - intros (o & Hn & H). destruct o as [c'|]; [|discriminate].
    destruct (chainid_max <? c') eqn:E; [discriminate|]. injection H as ->.
    split; [exact Hn|]. apply chainid_max_spec. exact E.
  - intros [Hn Hc]. exists (Some c). split; [exact Hn|].
    apply chainid_max_spec in Hc. rewrite Hc. reflexivity.
Qed.

Lemma chainid_sound j c :
  chainid_field j = Ok (Some c) -> numopt j = Ok (Some c) /\ 2 * c + 36 < 2 ^ 256.
Proof. apply chainid_iff. Qed.

Lemma chainid_reject j c :
  numopt j = Ok (Some c) -> 2 ^ 256 <= 2 * c + 36 -> chainid_field j = Err.
Proof.
  intros Hn Hc. unfold chainid_field. rewrite Hn. cbn [bind].
  destruct (chainid_max <? c) eqn:E; [reflexivity|]. apply chainid_max_spec in E. lia.
Qed.

(** * no panic *)

Lemma ethnum_permissive_i256_total j : graceful (ethnum_permissive_i256 j).
Proof.
  destruct j; cbn [ethnum_permissive_i256];
    try apply graceful_err; try apply graceful_ok; apply graceful_of_option.
Qed.

Lemma numopt_total j : graceful (numopt j).
Proof. exact (opt_field_total permissive_u256 j permissive_u256_total). Qed.

Lemma chainid_total j : graceful (chainid_field j).
Proof.
  unfold chainid_field. apply graceful_bind; [apply numopt_total|].
  intros [c|] _; [|apply graceful_ok].
  destruct (chainid_max <? c); [apply graceful_err|apply graceful_ok].
Qed.

Lemma bytes_total j : graceful (bytes_field j).
Proof. exact (hex_field_total _ j). Qed.

Lemma bytearray_total k j : graceful (bytearray_field k j).
Proof. exact (hex_field_total (fun s => hex_decode_fixed k (utf8 s)) j). Qed.

Lemma address_total j : graceful (address_field j).
Proof. exact (hex_field_total (ethaddr_hex_decode 20) j). Qed.

Lemma opt_address_total j : graceful (opt_address_field j).
Proof. exact (opt_field_total address_field j address_total). Qed.

Lemma total j oj k :
  graceful (permissive_u256 j) /\ graceful (ethnum_permissive_i256 j) /\ graceful (numopt oj)
  /\ graceful (chainid_field oj) /\ graceful (bytes_field j) /\ graceful (bytearray_field k j)
  /\ graceful (address_field j) /\ graceful (opt_address_field oj).
Proof.
  auto 10 using permissive_u256_total, ethnum_permissive_i256_total, numopt_total, chainid_total,
    bytes_total, bytearray_total, address_total, opt_address_total.
Qed.

(** what ethnum alone does with negative numbers (the behaviour behind the wrapper) *)
Lemma ethnum_wraps_negative z :
  (- 2 ^ 63 <= z < 0)%Z -> ethnum_permissive_u256 (JI64 z) = Ok (Z.to_N (2 ^ 256 + z)).
Proof.
  intros H. cbn [ethnum_permissive_u256]. unfold as_u256. f_equal. f_equal.
  symmetry. apply (Z.mod_unique_pos _ _ (-1)); lia.
Qed.

Lemma i256_exact j v :
  num_token_ok j -> ethnum_permissive_i256 j = Ok v ->
  denotes_int true j v /\ (- 2 ^ 255 <= v < 2 ^ 255)%Z.
Proof.
  destruct j as [| b | n | z | m e | s | l | kvs];
    cbn [num_token_ok ethnum_permissive_i256 denotes_int]; intros Htok H; try discriminate.
  - injection H as <-. split; [reflexivity|lia].
  - injection H as <-. split; [reflexivity|lia].
  - destruct (f64_to_int m e) as [i|] eqn:Ef; [|discriminate]. injection H as <-.
    apply f64_to_int_iff in Ef as [Hd Hw]. split; [exact Hd|lia].
  - destruct (from_str_prefixed true s) as [z|] eqn:Ep; [|discriminate]. injection H as <-.
    apply from_str_prefixed_iff in Ep as [Hd Hin]. split; [exact Hd|].
    apply in_range_i256. exact Hin.
Qed.

(** shorthand for the examples in [Props/C13.v] *)
Definition permissive_str (s : string) : outcome N := permissive_u256 (JStr (s2l s)).

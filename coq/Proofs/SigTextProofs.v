(** Proofs about [Model/SigText.v] (property C15, the signature text).

    [sig_bytes] is a bijection between the triples (r, s < 2^256, v < 256) and the 65-byte
    strings, and on [sig_bytes r s v] the byte-level parser computes [sig_of_triple r s v].
    So a text is accepted exactly when it spells a triple that [sig_of_triple] accepts:
    acceptance, soundness and every rejection are read off [sig_of_triple]. *)
From Coq Require Import String.
From Coq Require Import List NArith Lia Bool PeanoNat.
From HDW Require Import Lib.Outcome Lib.Bytes Lib.Hex Model.SigText.
From HDW Require Import Proofs.HexCliProofs.
Import ListNotations.
Open Scope N_scope.

(** The 65 bytes [r(32) ‖ s(32) ‖ v] a signature text denotes. *)
Definition sig_bytes (r s v : N) : bytes := be_fixed 32 r ++ be_fixed 32 s ++ [v].

(** [t] spells the triple [(r, s, v)]: an optional lower-case [0x], then the 130 hex digits
    of [sig_bytes r s v] in either case. *)
Definition sig_spelling (r s v : N) (t : text) : Prop :=
  exists body, (t = s2l "0x" ++ body \/ t = body) /\ map to_lower body = hex_encode (sig_bytes r s v).

(** The value [parse_sig] gives to a spelling of [(r, s, v)]. *)
Definition sig_of_triple (r s v : N) : outcome sig :=
  if (v =? 27) || (v =? 28) then
    if scalar_okb r && scalar_okb s
    then Ok {| sig_r := r; sig_s := s; sig_parity := (v =? 28) |}
    else Err
  else Err.

Lemma length_split {A} n m (l : list A) :
  length l = (n + m)%nat -> exists a b, l = a ++ b /\ length a = n /\ length b = m.
Proof.
  intros H. exists (firstn n l), (skipn n l).
  rewrite firstn_skipn, firstn_length, skipn_length. repeat split; lia.
Qed.

Lemma valid_sig_bounds σ : valid_sig σ -> sig_r σ < 2 ^ 256 /\ sig_s σ < 2 ^ 256.
Proof. intros [[_ Hr] [_ Hs]]. assert (secp_n < 2 ^ 256) by reflexivity. split; lia. Qed.

Lemma valid_sig_okb σ : valid_sig σ <-> scalar_okb (sig_r σ) && scalar_okb (sig_s σ) = true.
Proof. unfold valid_sig, scalar_okb. lia. Qed.

Lemma v_legacy_cases σ : v_legacy σ = if sig_parity σ then 28 else 27.
Proof. unfold v_legacy, y_parity. destruct (sig_parity σ); reflexivity. Qed.

Lemma v_legacy_byte σ : v_legacy σ < 256.
Proof. rewrite v_legacy_cases. destruct (sig_parity σ); lia. Qed.

Lemma sig_of_triple_ok r s v σ :
  sig_of_triple r s v = Ok σ <-> valid_sig σ /\ sig_r σ = r /\ sig_s σ = s /\ v_legacy σ = v.
Proof.
  unfold sig_of_triple. split.
  - destruct ((v =? 27) || (v =? 28)) eqn:Ev; [|discriminate].
    destruct (scalar_okb r && scalar_okb s) eqn:Eo; [|discriminate]. intros [= <-].
    split; [apply valid_sig_okb; exact Eo|]. rewrite v_legacy_cases. cbn [sig_r sig_s sig_parity].
    destruct (N.eqb_spec v 28); lia.
  - intros (Hv & <- & <- & <-). apply valid_sig_okb in Hv. rewrite Hv, v_legacy_cases.
    destruct σ as [r s [|]]; reflexivity.
Qed.

Lemma sig_of_triple_err r s v :
  r = 0 \/ secp_n <= r \/ s = 0 \/ secp_n <= s \/ (v <> 27 /\ v <> 28) ->
  sig_of_triple r s v = Err.
Proof.
  intros H. unfold sig_of_triple.
  destruct ((v =? 27) || (v =? 28)) eqn:Ev; [|reflexivity].
  destruct (scalar_okb r && scalar_okb s) eqn:Eo; [exfalso|reflexivity].
  unfold scalar_okb in Eo. lia.
Qed.

Lemma sig_of_triple_graceful r s v : graceful (sig_of_triple r s v).
Proof.
  unfold sig_of_triple. destruct ((v =? 27) || (v =? 28)); [|apply graceful_err].
  destruct (scalar_okb r && scalar_okb s); [apply graceful_ok|apply graceful_err].
Qed.

Lemma sig_bytes_length r s v : length (sig_bytes r s v) = 65%nat.
Proof. unfold sig_bytes. rewrite !app_length, !be_fixed_length. reflexivity. Qed.

Lemma sig_bytes_ok r s v : v < 256 -> bytes_ok (sig_bytes r s v).
Proof.
  intros Hv. unfold sig_bytes. apply bytes_ok_app; split; [apply be_fixed_ok|].
  apply bytes_ok_app; split; [apply be_fixed_ok|]. constructor; [exact Hv|constructor].
Qed.

Lemma parse_sig_bytes_eq bs :
  parse_sig_bytes bs
  = sig_of_triple (be_val (firstn 32 bs)) (be_val (firstn 32 (skipn 32 bs))) (nth 64 bs 0).
Proof.
  unfold parse_sig_bytes, sig_of_triple.
  destruct (nth 64 bs 0 =? 27) eqn:E27; [apply N.eqb_eq in E27; rewrite E27; reflexivity|].
  destruct (nth 64 bs 0 =? 28); reflexivity.
Qed.

Lemma parse_sig_bytes_fields a b v :
  length a = 32%nat -> length b = 32%nat ->
  parse_sig_bytes (a ++ b ++ [v]) = sig_of_triple (be_val a) (be_val b) v.
Proof.
  intros La Lb. rewrite parse_sig_bytes_eq. rewrite 2 app_nth2, La, Lb by lia.
  rewrite (firstn_app_len a), (skipn_app_len a), (firstn_app_len b) by assumption. reflexivity.
Qed.

Lemma parse_sig_bytes_triple r s v :
  r < 2 ^ 256 -> s < 2 ^ 256 -> parse_sig_bytes (sig_bytes r s v) = sig_of_triple r s v.
Proof.
  intros Hr Hs. unfold sig_bytes. rewrite parse_sig_bytes_fields by apply be_fixed_length.
  rewrite !be_val_fixed by (rewrite pow256_32; assumption). reflexivity.
Qed.

Lemma sig_bytes_fields a b v :
  bytes_ok a -> bytes_ok b -> length a = 32%nat -> length b = 32%nat ->
  sig_bytes (be_val a) (be_val b) v = a ++ b ++ [v].
Proof.
  intros Ha Hb La Lb. pose proof (be_fixed_val a Ha) as Ea. pose proof (be_fixed_val b Hb) as Eb.
  rewrite La in Ea. rewrite Lb in Eb. unfold sig_bytes. rewrite Ea, Eb. reflexivity.
Qed.

Lemma sig_body_cases t : utf8 t = s2l "0x" ++ sig_body t \/ utf8 t = sig_body t.
Proof.
  unfold sig_body. destruct (strip_prefix (s2l "0x") (utf8 t)) as [r|] eqn:E.
  - left. apply strip_prefix_some, E.
  - right. reflexivity.
Qed.

Lemma sig_body_suffix t : exists p, utf8 t = p ++ sig_body t.
Proof. destruct (sig_body_cases t) as [E|E]; [exists (s2l "0x")|exists []]; exact E. Qed.

Lemma sig_body_ascii_inv t :
  all_ascii (sig_body t) -> all_ascii t /\ (t = s2l "0x" ++ sig_body t \/ t = sig_body t).
Proof.
  intros H. pose proof (sig_body_cases t) as C.
  assert (Ha : all_ascii (utf8 t)).
  { destruct C as [-> | ->]; [apply Forall_app; split; [repeat constructor|]|]; exact H. }
  rewrite (utf8_ascii_inv t Ha) in C. split; [apply utf8_all_ascii_inv, Ha|exact C].
Qed.

Lemma sig_body_spelled t body :
  forallb is_hex body = true -> t = s2l "0x" ++ body \/ t = body -> sig_body t = body.
Proof.
  intros Hx Ht. pose proof (utf8_ascii body (all_hex_ascii _ Hx)) as Hu. unfold sig_body.
  destruct Ht as [-> | ->].
  - change (utf8 (s2l "0x" ++ body)) with (s2l "0x" ++ utf8 body). rewrite strip_prefix_app. exact Hu.
  - rewrite Hu, all_hex_no_0x by exact Hx. reflexivity.
Qed.

(** * Completeness: every spelling is parsed to the triple's value *)

Lemma decoded_spelling r s v t body :
  t = s2l "0x" ++ body \/ t = body -> hex_decode body = Some (sig_bytes r s v) -> sig_spelling r s v t.
Proof. intros Ht Hd. exists body. split; [exact Ht|apply (hex_decode_sound _ _ Hd)]. Qed.

Lemma parse_spelling r s v t :
  r < 2 ^ 256 -> s < 2 ^ 256 -> v < 256 -> sig_spelling r s v t ->
  parse_sig t = sig_of_triple r s v.
Proof.
  intros Hr Hs Hv (body & Ht & Hm).
  pose proof (hex_decode_complete body _ (sig_bytes_ok r s v Hv) Hm) as Hd.
  unfold parse_sig, hex_decode_fixed.
  rewrite (sig_body_spelled t body (hex_decode_all_hex _ _ Hd) Ht), Hd, sig_bytes_length.
  apply parse_sig_bytes_triple; assumption.
Qed.

Lemma parse_canonical r s v :
  r < 2 ^ 256 -> s < 2 ^ 256 -> v < 256 ->
  parse_sig (s2l "0x" ++ hex_encode (be_fixed 32 r ++ be_fixed 32 s ++ [v])) = sig_of_triple r s v.
Proof.
  intros Hr Hs Hv. apply parse_spelling; try assumption.
  eapply decoded_spelling; [left; reflexivity|]. apply hex_decode_encode, sig_bytes_ok, Hv.
Qed.

Theorem accept σ t :
  valid_sig σ -> sig_spelling (sig_r σ) (sig_s σ) (v_legacy σ) t -> parse_sig t = Ok σ.
Proof.
  intros Hv Hsp. destruct (valid_sig_bounds σ Hv) as [Hr Hs].
  rewrite (parse_spelling _ _ _ t Hr Hs (v_legacy_byte σ) Hsp). apply sig_of_triple_ok. auto.
Qed.

Theorem reject_triple r s v t :
  r < 2 ^ 256 -> s < 2 ^ 256 -> v < 256 -> sig_spelling r s v t ->
  r = 0 \/ secp_n <= r \/ s = 0 \/ secp_n <= s \/ (v <> 27 /\ v <> 28) ->
  parse_sig t = Err.
Proof.
  intros Hr Hs Hv Hsp Hbad. rewrite (parse_spelling r s v t Hr Hs Hv Hsp).
  apply sig_of_triple_err; exact Hbad.
Qed.

(** * The printed text *)

Lemma print_sig_body σ :
  skipn 2 (print_sig σ) = hex_encode (sig_bytes (sig_r σ) (sig_s σ) (v_legacy σ)).
Proof. unfold print_sig, sig_bytes. rewrite !hex_encode_app. reflexivity. Qed.

Lemma decode_printed σ :
  hex_decode (skipn 2 (print_sig σ)) = Some (sig_bytes (sig_r σ) (sig_s σ) (v_legacy σ)).
Proof. rewrite print_sig_body. apply hex_decode_encode, sig_bytes_ok, v_legacy_byte. Qed.

Lemma decode_printed_upper σ :
  hex_decode (map to_upper (skipn 2 (print_sig σ))) = Some (sig_bytes (sig_r σ) (sig_s σ) (v_legacy σ)).
Proof. rewrite hex_decode_upper. apply decode_printed. Qed.

Lemma roundtrip_body σ body :
  valid_sig σ -> hex_decode body = Some (sig_bytes (sig_r σ) (sig_s σ) (v_legacy σ)) ->
  parse_sig (s2l "0x" ++ body) = Ok σ /\ parse_sig body = Ok σ.
Proof.
  intros Hv Hd. split; apply accept; try exact Hv; eapply decoded_spelling; try exact Hd; auto.
Qed.

Theorem roundtrip σ : valid_sig σ -> parse_sig (print_sig σ) = Ok σ.
Proof. intros Hv. exact (proj1 (roundtrip_body σ _ Hv (decode_printed σ))). Qed.

Theorem format σ :
  sig_r σ < 2 ^ 256 -> sig_s σ < 2 ^ 256 ->
  exists rd sd vd,
    print_sig σ = s2l "0x" ++ rd ++ sd ++ vd
    /\ length rd = 64%nat /\ length sd = 64%nat /\ length vd = 2%nat
    /\ forallb lower_hex_char (rd ++ sd ++ vd) = true
    /\ hex_decode rd = Some (be_fixed 32 (sig_r σ)) /\ be_val (be_fixed 32 (sig_r σ)) = sig_r σ
    /\ hex_decode sd = Some (be_fixed 32 (sig_s σ)) /\ be_val (be_fixed 32 (sig_s σ)) = sig_s σ
    /\ hex_decode vd = Some [27 + (if sig_parity σ then 1 else 0)].
Proof.
  intros Hr Hs.
  assert (Hv : bytes_ok [v_legacy σ]) by (constructor; [apply v_legacy_byte|constructor]).
  exists (hex_encode (be_fixed 32 (sig_r σ))), (hex_encode (be_fixed 32 (sig_s σ))),
         (hex_encode [v_legacy σ]).
  rewrite !hex_encode_length, !be_fixed_length, <- !hex_encode_app.
  rewrite !hex_decode_encode, !be_val_fixed by (try apply be_fixed_ok; try rewrite pow256_32; assumption).
  repeat split.
  - apply hex_encode_lower_chars, sig_bytes_ok, v_legacy_byte.
  - rewrite v_legacy_cases. destruct (sig_parity σ); reflexivity.
Qed.

(** * Soundness: only spellings of valid signatures are accepted *)

Lemma parse_sig_inv t σ :
  parse_sig t = Ok σ ->
  exists bs, hex_decode (sig_body t) = Some bs /\ length bs = 65%nat /\ parse_sig_bytes bs = Ok σ.
Proof.
  unfold parse_sig, hex_decode_fixed. intros H.
  destruct (hex_decode (sig_body t)) as [bs|] eqn:Hd; [|discriminate].
  destruct (Nat.eqb_spec (length bs) 65) as [Hl|Hl]; [|discriminate].
  exists bs. repeat split; assumption.
Qed.

Theorem sound_spelling t σ :
  parse_sig t = Ok σ ->
  valid_sig σ /\ sig_spelling (sig_r σ) (sig_s σ) (v_legacy σ) t.
Proof.
  intros H. destruct (parse_sig_inv t σ H) as (bs & Hd & Hl & Hp).
  destruct (hex_decode_sound _ _ Hd) as (Hok & _).
  destruct (length_split 32 33 bs Hl) as (a & rest & -> & La & Lr).
  destruct (length_split 32 1 rest Lr) as (b & [|v [|]] & -> & Lb & Lc); try discriminate Lc.
  apply bytes_ok_app in Hok as [Ha Hok]. apply bytes_ok_app in Hok as [Hb _].
  rewrite parse_sig_bytes_fields in Hp by assumption.
  apply sig_of_triple_ok in Hp as (Hvalid & -> & -> & ->). split; [exact Hvalid|].
  eapply decoded_spelling; [|rewrite sig_bytes_fields by assumption; exact Hd].
  exact (proj2 (sig_body_ascii_inv t (all_hex_ascii _ (hex_decode_all_hex _ _ Hd)))).
Qed.

Theorem total t : graceful (parse_sig t).
Proof.
  apply graceful_bind; [apply graceful_of_option|]. intros bs _.
  rewrite parse_sig_bytes_eq. apply sig_of_triple_graceful.
Qed.

Theorem reject t :
  (~ exists σ, valid_sig σ /\ sig_spelling (sig_r σ) (sig_s σ) (v_legacy σ) t) -> parse_sig t = Err.
Proof.
  intros H. apply graceful_not_ok_err; [apply total|].
  intros σ Hσ. apply H. exists σ. apply sound_spelling; exact Hσ.
Qed.

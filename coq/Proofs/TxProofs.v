(** C06 / C11: the model's [rlp_encode] computes the specification trees
    ([Spec/TxSpec.v]) encoded by the Yellow-Paper [enc]; these trees are well-formed RLP items;
    [Signature::v] is exact. *)
From Coq Require Import List NArith Lia.
From HDW Require Import Lib.Outcome Lib.Bytes Model.Rlp Model.SigText Model.Tx
  Spec.RlpSpec Spec.TxSpec Proofs.RlpProofs.
Import ListNotations.
Open Scope N_scope.
Open Scope outcome_scope.

(** * Well-formed items whose encoding has at most [k] bytes

    [wf_item (Lst l)] asks for the length of the encoded members, so well-formedness and a
    bound on the encoded length are established together, bottom up. *)

Definition wfb (i : item) (k : N) : Prop := wf_item i /\ N.of_nat (length (enc i)) <= k.
Definition wfbl (l : list item) (k : N) : Prop :=
  Forall wf_item l /\ N.of_nat (length (flat_map enc l)) <= k.

Lemma wfb_le i a b : wfb i a -> a <= b -> wfb i b.
Proof. intros [Hi Ha] Hab. split; [exact Hi|lia]. Qed.

Lemma wfbl_le l a b : wfbl l a -> a <= b -> wfbl l b.
Proof. intros [Hl Ha] Hab. split; [exact Hl|lia]. Qed.

Lemma wfbl_nil : wfbl [] 0.
Proof. split; [constructor|cbn [flat_map length]; lia]. Qed.

Lemma wfbl_cons i l a b : wfb i a -> wfbl l b -> wfbl (i :: l) (a + b).
Proof.
  intros [Hi Ha] [Hl Hb]. split; [constructor; assumption|].
  cbn [flat_map]. rewrite app_length. lia.
Qed.

Lemma wfbl_app l m a b : wfbl l a -> wfbl m b -> wfbl (l ++ m) (a + b).
Proof.
  intros [Hl Ha] [Hm Hb]. split; [apply Forall_app; split; assumption|].
  rewrite flat_map_app, app_length. lia.
Qed.

Lemma enc_len_length n off : n < 2 ^ 64 -> N.of_nat (length (enc_len n off)) <= 9.
Proof.
  intros H. unfold enc_len. destruct (n <? 56); cbn [length]; [lia|].
  pose proof (be_min_len n H). lia.
Qed.

Lemma wfb_Str b k :
  bytes_ok b -> N.of_nat (length b) <= k -> k < 2 ^ 64 -> wfb (Str b) (9 + k).
Proof.
  intros Hok Hlen Hk. split; [constructor; [exact Hok|lia]|].
  cbn [enc]. rewrite enc_str_cases. destruct (single_low b); [lia|].
  rewrite app_length. pose proof (enc_len_length (N.of_nat (length b)) 128 ltac:(lia)). lia.
Qed.

Lemma wfb_Lst l k : wfbl l k -> k < 2 ^ 64 -> wfb (Lst l) (9 + k).
Proof.
  intros [Hl Hk] Hfit. split; [constructor; [exact Hl|lia]|].
  cbn [enc]. cbv zeta. rewrite app_length.
  pose proof (enc_len_length (N.of_nat (length (flat_map enc l))) 192 ltac:(lia)). lia.
Qed.

(** * The specification trees are well-formed *)

Lemma wfb_Int v : v < 2 ^ 256 -> wfb (Int v) 41.
Proof.
  intros H. pose proof (be_min_length_le 32 v H).
  apply (wfb_Str (be_min v) 32); [apply be_min_ok|lia|lia].
Qed.

Lemma wfb_to_item to : wf_to to -> wfb (to_item to) 29.
Proof.
  unfold to_item. destruct to as [a|].
  - intros [HL Hok]. apply (wfb_Str a 20); [exact Hok|lia|lia].
  - intros _. apply (wfb_Str [] 20); [constructor|cbn [length]; lia|lia].
Qed.

Lemma wfbl_slots (ks : list bytes) :
  Forall (fun k : bytes => length k = 32%nat /\ bytes_ok k) ks ->
  wfbl (map Str ks) (41 * N.of_nat (length ks)).
Proof.
  induction 1 as [|k ks [HL Hok] _ IH]; cbn [map length]; [exact wfbl_nil|].
  eapply wfbl_le; [apply wfbl_cons; [apply (wfb_Str k 32); [exact Hok|lia|lia]|exact IH]|lia].
Qed.

Lemma wfb_entry e :
  wf_access_entry e -> 64 * (1 + N.of_nat (length (snd e))) < 2 ^ 64 ->
  wfb (access_entry_tree e) (64 * (1 + N.of_nat (length (snd e)))).
Proof.
  destruct e as [a ks]. unfold wf_access_entry. cbn [fst snd access_entry_tree].
  intros [[HL Hok] Hks] Hfit.
  eapply wfb_le.
  - apply wfb_Lst; [apply wfbl_cons; [|apply wfbl_cons; [|exact wfbl_nil]]|].
    + apply (wfb_Str a 20); [exact Hok|lia|lia].
    + apply wfb_Lst; [exact (wfbl_slots ks Hks)|lia].
    + lia.
  - lia.
Qed.

Lemma cells_cons e al :
  access_list_cells (e :: al) = 1 + N.of_nat (length (snd e)) + access_list_cells al.
Proof. reflexivity. Qed.

Lemma wfbl_entries al :
  wf_access_list al -> 64 * access_list_cells al < 2 ^ 64 ->
  wfbl (map access_entry_tree al) (64 * access_list_cells al).
Proof.
  induction 1 as [|e al He _ IH]; cbn [map]; [intros _; exact wfbl_nil|].
  rewrite cells_cons. intros Hfit.
  eapply wfbl_le; [apply wfbl_cons; [apply (wfb_entry e He)|apply IH]|]; lia.
Qed.

Lemma wfb_access_list_tree al :
  wf_access_list al -> 64 * access_list_cells al + 9 < 2 ^ 64 ->
  wfb (access_list_tree al) (9 + 64 * access_list_cells al).
Proof. intros Hw Hfit. apply wfb_Lst; [apply wfbl_entries; [exact Hw|lia]|lia]. Qed.

(** the list of a transaction is its fields followed by a tail that depends on the signature *)
Definition tx_fields (t : tx) : list item :=
  match t with
  | Legacy t => legacy_fields t
  | Eip2930 t => eip2930_fields t
  | Eip1559 t => eip1559_fields t
  end.

Definition legacy_tail (chain_id : option N) (σo : option sig) : list item :=
  match σo with
  | Some σ => legacy_signed_tail chain_id σ
  | None => legacy_unsigned_tail chain_id
  end.
Definition typed_tail (σo : option sig) : list item :=
  match σo with
  | Some σ => typed_signed_tail σ
  | None => []
  end.
Definition tx_tail (t : tx) (σo : option sig) : list item :=
  match t with
  | Legacy t => legacy_tail (l_chain_id t) σo
  | _ => typed_tail σo
  end.

Definition tree_of (t : tx) (σo : option sig) : item := Lst (tx_fields t ++ tx_tail t σo).

Lemma tree_of_some t σ : tree_of t (Some σ) = signed_tree t σ.
Proof. destruct t; reflexivity. Qed.
Lemma tree_of_none t : tree_of t None = unsigned_tree t.
Proof. destruct t; reflexivity. Qed.

Definition sig_opt_fits (σo : option sig) : Prop :=
  match σo with Some σ => sig_fits σ | None => True end.

Lemma data_len_fits t : tx_fits t -> N.of_nat (length (tx_data t)) < 2 ^ 64.
Proof. unfold tx_fits. lia. Qed.

Lemma al_fits t : tx_fits t -> 64 * access_list_cells (tx_access_list t) + 9 < 2 ^ 64.
Proof. unfold tx_fits. lia. Qed.

#[local] Hint Resolve wfbl_nil wfbl_cons wfb_Int wfb_to_item wfb_access_list_tree : wfb.

Lemma wfbl_fields t :
  wf_tx t -> tx_fits t ->
  wfbl (tx_fields t)
       (N.of_nat (length (tx_data t)) + 64 * access_list_cells (tx_access_list t) + 512).
Proof.
  intros Hw Hfit. pose proof (data_len_fits t Hfit) as Hd. pose proof (al_fits t Hfit) as Ha.
  assert (Hdata : bytes_ok (tx_data t)) by (destruct t; apply Hw).
  pose proof (wfb_Str _ _ Hdata (N.le_refl _) Hd).
  destruct t as [t|t|t];
    cbv [wf_tx wf_legacy wf_eip2930 wf_eip1559 u256 tx_data tx_access_list
         tx_fields legacy_fields eip2930_fields eip1559_fields] in *;
    decompose [and] Hw.
  (* every member is found in the hint database [wfb] or, for the calldata, in the context;
     what is left to [lia] is the sum of the bounds *)
  all: eapply wfbl_le; [eauto 24 with wfb|clear; lia].
Qed.

(** the model's and the specification's name for the parity bit as a number *)
Lemma y_parity_N σ : y_parity σ = parity_N σ.
Proof. reflexivity. Qed.

Lemma parity_le σ : parity_N σ <= 1.
Proof. unfold parity_N. destruct (sig_parity σ); lia. Qed.

Lemma spec_v_bound σ c : wf_legacy_chain c -> spec_v σ c < 2 ^ 256.
Proof.
  pose proof (parity_le σ). unfold wf_legacy_chain, spec_v. destruct c as [c|]; intros Hc; lia.
Qed.

Lemma wfbl_tail3 a b c :
  a < 2 ^ 256 -> b < 2 ^ 256 -> c < 2 ^ 256 -> wfbl [Int a; Int b; Int c] 123.
Proof. intros Ha Hb Hc. change 123 with (41 + (41 + (41 + 0))). auto with wfb. Qed.

Lemma wfbl_legacy_tail c σo :
  wf_legacy_chain c -> sig_opt_fits σo -> wfbl (legacy_tail c σo) 123.
Proof.
  intros Hc Hs. destruct σo as [σ|]; cbn [legacy_tail].
  - destruct Hs as [Hr Hss]. apply wfbl_tail3; [apply spec_v_bound, Hc|exact Hr|exact Hss].
  - destruct c as [c|]; cbn [legacy_unsigned_tail wf_legacy_chain] in *.
    + apply wfbl_tail3; lia.
    + apply (wfbl_le _ _ _ wfbl_nil). lia.
Qed.

Lemma wfbl_typed_tail σo : sig_opt_fits σo -> wfbl (typed_tail σo) 123.
Proof.
  intros Hs. destruct σo as [σ|]; cbn [typed_tail]; [|apply (wfbl_le _ _ _ wfbl_nil); lia].
  destruct Hs as [Hr Hss]. pose proof (parity_le σ). apply wfbl_tail3; [lia|exact Hr|exact Hss].
Qed.

Lemma wf_tree t σo : wf_tx t -> tx_fits t -> sig_opt_fits σo -> wf_item (tree_of t σo).
Proof.
  intros Hw Hfit Hs. unfold tree_of.
  assert (Ht : wfbl (tx_tail t σo) 123).
  { destruct t; [apply wfbl_legacy_tail; [apply Hw|exact Hs]|apply wfbl_typed_tail, Hs..]. }
  apply (wfb_Lst _ _ (wfbl_app _ _ _ _ (wfbl_fields t Hw Hfit) Ht)).
  unfold tx_fits in Hfit. lia.
Qed.

(** * [Signature::v] *)

Lemma sig_v_none σ : sig_v σ None = Ok (27 + parity_N σ).
Proof.
  pose proof (parity_le σ) as Hp. cbn [sig_v]. unfold u256_add. rewrite y_parity_N.
  rewrite (proj2 (N.ltb_lt _ _)) by lia. f_equal. lia.
Qed.

(** One of the three checked operations fires iff the mathematical value reaches 2^256 (all
    summands are non-negative): never a wrapped value. *)
Lemma sig_v_some σ c :
  sig_v σ (Some c)
  = if 35 + 2 * c + parity_N σ <? 2 ^ 256 then Ok (35 + 2 * c + parity_N σ) else Panic.
Proof.
  cbn [sig_v]. unfold u256_mul, u256_add. rewrite y_parity_N.
  destruct (N.ltb_spec (35 + 2 * c + parity_N σ) (2 ^ 256)) as [H|H].
  - rewrite (proj2 (N.ltb_lt (c * 2) _)) by lia. cbn [bind].
    rewrite (proj2 (N.ltb_lt (parity_N σ + c * 2) _)) by lia. cbn [bind].
    rewrite (proj2 (N.ltb_lt _ _)) by lia. f_equal. lia.
  - destruct (c * 2 <? 2 ^ 256); [cbn [bind]|reflexivity].
    destruct (parity_N σ + c * 2 <? 2 ^ 256); [cbn [bind]|reflexivity].
    rewrite (proj2 (N.ltb_ge _ _)) by lia. reflexivity.
Qed.

Lemma sig_v_exact σ c : 2 * c + 36 < 2 ^ 256 -> sig_v σ (Some c) = Ok (35 + 2 * c + parity_N σ).
Proof.
  intros Hc. pose proof (parity_le σ). rewrite sig_v_some, (proj2 (N.ltb_lt _ _)) by lia. reflexivity.
Qed.

Lemma sig_v_spec σ c : wf_legacy_chain c -> sig_v σ c = Ok (spec_v σ c).
Proof.
  destruct c as [c|]; cbn [wf_legacy_chain spec_v]; intros H; [apply sig_v_exact, H|apply sig_v_none].
Qed.

(** * The model computes [enc] of the trees *)

Lemma rlp_to_enc to : wf_to to -> rlp_to to = Ok (enc (to_item to)).
Proof.
  intros H. unfold rlp_to, to_item. destruct to as [a|]; apply rlp_bytes_enc.
  - destruct H as [HL _]. lia.
  - cbn [length]. lia.
Qed.

Lemma wf_Str_len b : wf_item (Str b) -> N.of_nat (length b) < 2 ^ 64.
Proof. intros H. inversion H; assumption. Qed.

Lemma wf_Lst_inv l :
  wf_item (Lst l) -> Forall wf_item l /\ N.of_nat (length (flat_map enc l)) < 2 ^ 64.
Proof. intros H. inversion H; split; assumption. Qed.

Lemma rlp_iter_Lst l : wf_item (Lst l) -> rlp_iter (map enc l) = Ok (enc (Lst l)).
Proof. intros H. apply rlp_list_enc, wf_Lst_inv, H. Qed.

Lemma access_entry_rlp_enc e :
  wf_item (access_entry_tree e) -> access_entry_rlp e = Ok (enc (access_entry_tree e)).
Proof.
  destruct e as [a ks]. cbn [access_entry_tree access_entry_rlp]. intros H.
  destruct (wf_Lst_inv _ H) as [Hl _].
  inversion Hl as [|? ? Ha Hl']; subst. inversion Hl' as [|? ? Hks _]; subst.
  rewrite (rlp_bytes_enc a (wf_Str_len a Ha)). cbn [bind].
  rewrite (omapM_map rlp_bytes (fun k => enc (Str k))).
  - cbn [bind]. rewrite <- map_map, (rlp_iter_Lst _ Hks). exact (rlp_iter_Lst _ H).
  - apply wf_Lst_inv in Hks as [Hks _]. rewrite Forall_map in Hks.
    eapply Forall_impl; [|exact Hks]. intros k Hk. apply rlp_bytes_enc, wf_Str_len, Hk.
Qed.

Lemma access_list_rlp_enc al :
  wf_item (access_list_tree al) -> access_list_rlp al = Ok (enc (access_list_tree al)).
Proof.
  unfold access_list_tree, access_list_rlp. intros H.
  rewrite (omapM_map access_entry_rlp (fun e => enc (access_entry_tree e))).
  - cbn [bind]. rewrite <- map_map. exact (rlp_iter_Lst _ H).
  - apply wf_Lst_inv in H as [H _]. rewrite Forall_map in H.
    eapply Forall_impl; [|exact H]. exact access_entry_rlp_enc.
Qed.

Lemma legacy_tail_rlp_enc c σo :
  wf_legacy_chain c -> sig_opt_fits σo ->
  legacy_tail_rlp c σo = Ok (map enc (legacy_tail c σo)).
Proof.
  intros Hc Hs. unfold legacy_tail_rlp. destruct σo as [σ|]; cbn [legacy_tail].
  - destruct Hs as [Hr Hss]. rewrite (sig_v_spec σ c Hc). cbn [bind].
    rewrite (rlp_uint_enc _ (spec_v_bound σ c Hc)), (rlp_uint_enc _ Hr), (rlp_uint_enc _ Hss).
    reflexivity.
  - destruct c as [c|]; cbn [bind legacy_unsigned_tail wf_legacy_chain] in *; [|reflexivity].
    rewrite (rlp_uint_enc c), (rlp_uint_enc 0) by lia. reflexivity.
Qed.

Lemma typed_tail_rlp_enc σo :
  sig_opt_fits σo -> typed_tail_rlp σo = Ok (map enc (typed_tail σo)).
Proof.
  intros Hs. unfold typed_tail_rlp. destruct σo as [σ|]; cbn [typed_tail]; [|reflexivity].
  destruct Hs as [Hr Hss]. pose proof (parity_le σ) as Hp. rewrite y_parity_N.
  rewrite (rlp_uint_enc (parity_N σ)), (rlp_uint_enc _ Hr), (rlp_uint_enc _ Hss) by lia.
  reflexivity.
Qed.

Lemma wf_access_list_tree al :
  wf_access_list al -> 64 * access_list_cells al + 9 < 2 ^ 64 -> wf_item (access_list_tree al).
Proof. intros Hw Hfit. exact (proj1 (wfb_access_list_tree al Hw Hfit)). Qed.

Lemma prefixed_ok (p : bytes) (o : outcome bytes) x :
  o = Ok x -> (let* body := o in Ok (p ++ body)) = Ok (p ++ x).
Proof. intros ->. reflexivity. Qed.

(** Each member is rewritten to the encoding of its item; what remains is [rlp_iter] of the
    encoded members of the tree ([Htree]).  The legacy encoder ends in it; the typed ones bind
    it and put the type byte in front. *)
Theorem rlp_encode_enc t σo :
  wf_tx t -> tx_fits t -> sig_opt_fits σo ->
  rlp_encode t σo = Ok (type_prefix t ++ enc (tree_of t σo)).
Proof.
  intros Hw Hfit Hs.
  pose proof (wf_tree t σo Hw Hfit Hs) as Htree. apply rlp_iter_Lst in Htree.
  unfold tree_of in *. rewrite map_app in Htree.
  pose proof (data_len_fits t Hfit) as Hd. pose proof (al_fits t Hfit) as Ha.
  destruct t as [t|t|t]; cbv [wf_tx wf_legacy wf_eip2930 wf_eip1559 u256] in Hw; decompose [and] Hw;
    cbn [tx_fields tx_tail tx_data tx_access_list rlp_encode type_prefix] in *.
  - unfold legacy_rlp_encode.
    rewrite !rlp_uint_enc, rlp_to_enc, rlp_bytes_enc, legacy_tail_rlp_enc by assumption.
    exact Htree.
  - unfold eip2930_rlp_encode.
    rewrite !rlp_uint_enc, rlp_to_enc, rlp_bytes_enc, typed_tail_rlp_enc by assumption.
    rewrite access_list_rlp_enc by (apply wf_access_list_tree; assumption).
    cbn [bind]. apply prefixed_ok, Htree.
  - unfold eip1559_rlp_encode.
    rewrite !rlp_uint_enc, rlp_to_enc, rlp_bytes_enc, typed_tail_rlp_enc by assumption.
    rewrite access_list_rlp_enc by (apply wf_access_list_tree; assumption).
    cbn [bind]. apply prefixed_ok, Htree.
Qed.

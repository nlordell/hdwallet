(** Proofs about [Model/Cli.v] (C16): the commands are compositions of the library models.
    [Props/C16.v] takes these compositions apart with [bind_ok]; here are the two chains that several
    of its theorems share ([sign_and_print], [sign transaction]) and the totality of loading the account. *)
From Coq Require Import String.
From Coq Require Import List NArith ZArith Bool Lia.
From HDW Require Import Lib.Outcome Lib.Bytes Lib.Hex Model.Json.
From HDW Require Import Model.Bip39 Model.Seed Model.Path Model.Bip32 Model.Account Model.SigText Model.Message Model.Tx Model.Cli.
From HDW Require Import Proofs.Bip39Proofs Proofs.EntropyProofs Proofs.PathProofs Proofs.Bip32Proofs.
Import ListNotations.
Open Scope outcome_scope.

Section WithPrims.
Variable sha256 : bytes -> bytes.
Variable pbkdf2 : bytes -> bytes -> N -> nat -> bytes.
Variable nfkd : text -> text.
Variable hmac512 : bytes -> bytes -> bytes.
Variable pub_compressed : N -> bytes.
Variable keccak : bytes -> bytes.
Variable sign : N -> bytes -> outcome sig.

Notation private_key := (private_key sha256 pbkdf2 nfkd hmac512 pub_compressed).
Notation sign_and_print := (sign_and_print sha256 pbkdf2 nfkd hmac512 pub_compressed sign).

Lemma sign_and_print_iff o d out :
  sign_and_print o d = Ok out <->
  exists k dg σ, private_key o = Ok k /\ d = Ok dg /\ sign k dg = Ok σ /\ out = print_sig σ.
Proof.
  unfold Cli.sign_and_print. split.
  - intros H. apply bind_ok in H as (k & Hk & H). apply bind_ok in H as (dg & Hd & H).
    apply bind_ok in H as (σ & Hs & [= <-]). eauto 8.
  - intros (k & dg & σ & Hk & -> & Hs & ->). rewrite Hk. cbn [bind]. rewrite Hs. reflexivity.
Qed.

(** [sign transaction] after the account is loaded: the links of [sign_tx_cmd] up to the signature *)
Lemma sign_transaction_inv o allow sigonly j out :
  cmd_sign_transaction sha256 pbkdf2 nfkd hmac512 pub_compressed keccak sign o allow sigonly j = Ok out ->
  exists k t h σ, private_key o = Ok k /\ tx_of_json j = Ok t /\ signing_message keccak t = Ok h
                  /\ sign k h = Ok σ
                  /\ (if sigonly then Ok (print_sig σ) else omap hex0x (encode t σ)) = Ok out.
Proof.
  unfold cmd_sign_transaction, sign_tx_cmd. intros H.
  apply bind_ok in H as (k & Hk & H). apply bind_ok in H as (t & Ht & H).
  apply bind_ok in H as (u & _ & H). apply bind_ok in H as (h & Hh & H).
  apply bind_ok in H as (σ & Hs & H). eauto 10.
Qed.

End WithPrims.

Lemma account_path_total sel : graceful (account_path sel).
Proof. destruct sel; cbn [account_path]; [apply total_for_index|apply total_for_index|apply total_parse]. Qed.

(** Loading the account never panics: each link of the chain (phrase, seed, path, derivation) is total. *)
Lemma private_key_total sha256 pbkdf2 nfkd hmac512 pub_compressed :
  (forall x, length (sha256 x) = 32%nat) -> (forall x, bytes_ok (sha256 x)) ->
  (forall k m, length (hmac512 k m) = 64%nat) ->
  forall o, graceful (private_key sha256 pbkdf2 nfkd hmac512 pub_compressed o).
Proof.
  intros Hsl Hso Hhl o. unfold private_key.
  apply graceful_bind; [apply (Bip39Proofs.total sha256 Hsl Hso)|]. intros m Hm.
  rewrite (seed_of_phrase sha256 Hsl Hso pbkdf2 nfkd _ m _ Hm). cbn [bind].
  apply graceful_bind; [apply account_path_total|].
  intros p _. apply (Bip32Proofs.total hmac512 pub_compressed Hhl).
Qed.

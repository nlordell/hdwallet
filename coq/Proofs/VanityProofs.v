(** Proofs about [Model/Vanity.v] (property C18: the search loop and the thread race). *)
(*EMPTY*)
From Coq Require Import List NArith.
From HDW Require Import Lib.Outcome Lib.Bytes Model.Prefix Model.Vanity.
Import ListNotations.
Open Scope N_scope.
Open Scope outcome_scope.

Section VanityProofs.
  Variable candidate : Type.
  Variable addr_of : candidate -> outcome bytes.

  Notation search := (search candidate addr_of).
  Notation run_vanity := (run_vanity candidate addr_of).

  Lemma search_unfold p c st :
    search p c st =
    (let* a := addr_of c in
     if matches p a then Ok c
     else match st with
          | [] => OutOfFuel
          | x :: rest => let* next := x in search p next rest
          end).
  Proof. destruct st; reflexivity. Qed.

  Lemma search_hit p c st a : addr_of c = Ok a -> matches p a = true -> search p c st = Ok c.
  Proof. intros Ha Hm. rewrite search_unfold, Ha. cbn [bind]. rewrite Hm. reflexivity. Qed.

  Lemma search_miss p c a x st :
    addr_of c = Ok a -> matches p a = false ->
    search p c (x :: st) = (let* next := x in search p next st).
  Proof. intros Ha Hm. rewrite search_unfold, Ha. cbn [bind]. rewrite Hm. reflexivity. Qed.

  (** A derivation error of the current candidate ends the search with an error. *)
  Lemma search_derivation_error p c st : addr_of c = Err -> search p c st = Err.
  Proof. intros Ha. rewrite search_unfold, Ha. reflexivity. Qed.

  (** The returned candidate really matches, and it is the first candidate or one that the
      entropy source delivered. *)
  Lemma search_matches p st : forall c0 c,
    search p c0 st = Ok c ->
    (exists a, addr_of c = Ok a /\ matches p a = true) /\ (c = c0 \/ In (Ok c) st).
  Proof.
    induction st as [|x rest IH]; intros c0 c H; rewrite search_unfold in H;
      destruct (addr_of c0) as [a0| | |] eqn:Ha; try discriminate H; cbn [bind] in H;
      (destruct (matches p a0) eqn:Hm; [injection H as <-; split; [eauto|left; reflexivity]|]).
    - discriminate H.
    - destruct x as [next| | |]; try discriminate H.
      destruct (IH next c H) as [Hmatch Hc]. split; [exact Hmatch|].
      right. destruct Hc as [->|Hin]; [left; reflexivity|right; exact Hin].
  Qed.

  Lemma search_never_nonmatching p c0 st c a :
    search p c0 st = Ok c -> addr_of c = Ok a -> matches p a = true.
  Proof.
    intros H Ha. destruct (search_matches _ _ _ _ H) as [(a' & Ha' & Hm) _]. congruence.
  Qed.

  (** The candidates that were looked at and rejected. *)
  Definition rejected (p : prefix) (c : candidate) : Prop :=
    exists a, addr_of c = Ok a /\ matches p a = false.

  (** A search walks past rejected candidates to the next element of its stream: a matching
      candidate there is the one returned, an entropy failure there is the outcome. *)
  Lemma search_skip p c0 cs x rest :
    rejected p c0 -> Forall (rejected p) cs ->
    search p c0 (map Ok cs ++ x :: rest) = (let* c1 := x in search p c1 rest).
  Proof.
    intros H0 Hcs. revert c0 H0. induction Hcs as [|c cs Hc _ IH]; intros c0 (a0 & Ha0 & Hm0);
      cbn [map app]; rewrite (search_miss _ _ _ _ _ Ha0 Hm0); [reflexivity|].
    cbn [bind]. apply IH, Hc.
  Qed.

  (** A message other than "nothing sent" is the worker's own result. *)
  Lemma worker_message_sent r x : worker_message candidate r = x -> x <> OutOfFuel -> r = x.
  Proof. destruct r; cbn; congruence. Qed.

  (** A run that ends with a result or an error got it from the first entropy request or from
      the search of the worker heard first (the inline search without threads). *)
  Lemma run_vanity_inv p threads workers winner first x :
    run_vanity p threads workers winner first = x -> graceful x ->
    (first = Err /\ x = Err)
    \/ exists c0, first = Ok c0
         /\ search p c0 (nth (if threads =? 0 then 0%nat else winner) workers []) = x.
  Proof.
    unfold Vanity.run_vanity. intros H [Hp Hf].
    destruct first as [c0| | |]; cbn [bind] in H; [right|left; auto|congruence|congruence].
    exists c0. split; [reflexivity|]. destruct (threads =? 0); [exact H|].
    destruct (N.of_nat winner <? threads); [|congruence]. apply worker_message_sent; assumption.
  Qed.

  (** Whichever worker's message comes first, the phrase that is returned has an address that
      matches the prefix, and the phrase is the first one or one generated by a worker. *)
  Lemma result p threads workers winner first c :
    run_vanity p threads workers winner first = Ok c ->
    (exists a, addr_of c = Ok a /\ matches p a = true)
    /\ (first = Ok c \/ exists st, In st workers /\ In (Ok c) st).
  Proof.
    intros H. destruct (run_vanity_inv _ _ _ _ _ _ H (graceful_ok c)) as [[_ [=]]|(c0 & -> & Hs)].
    destruct (search_matches _ _ _ _ Hs) as [Hm [-> | Hin]].
    - split; [exact Hm|left; reflexivity].
    - split; [exact Hm|right]. eexists. split; [|exact Hin].
      destruct (nth_in_or_default (if threads =? 0 then 0%nat else winner) workers []) as [Hk | Hk];
        [exact Hk|]. rewrite Hk in Hin. destruct Hin.
  Qed.

  (** The error of the worker whose message comes first (entropy failure, derivation error)
      surfaces as an error — never as a phrase. *)
  Lemma worker_error_is_error p threads workers winner c0 :
    search p c0 (nth (if threads =? 0 then 0%nat else winner) workers []) = Err ->
    (threads = 0 \/ N.of_nat winner < threads) ->
    run_vanity p threads workers winner (Ok c0) = Err.
  Proof.
    intros Hs Hw. unfold Vanity.run_vanity. cbn [bind].
    destruct (N.eqb_spec threads 0) as [Ht|Ht].
    - exact Hs.
    - destruct Hw as [Hw|Hw]; [contradiction|].
      apply N.ltb_lt in Hw. rewrite Hw, Hs. reflexivity.
  Qed.

  (** The run never panics by itself: a [Panic] can only come from the inline search
      (i.e. from [addr_of]); with threads a panicking worker just never sends. *)
  Lemma run_vanity_no_panic_threads p threads workers winner first :
    threads <> 0 -> first <> Panic -> run_vanity p threads workers winner first <> Panic.
  Proof.
    intros Ht Hf. unfold Vanity.run_vanity. destruct first as [c0| | |]; try discriminate; [|congruence].
    cbn [bind]. apply N.eqb_neq in Ht. rewrite Ht.
    destruct (N.of_nat winner <? threads); [|discriminate].
    destruct (Vanity.search candidate addr_of p c0 (nth winner workers [])); discriminate.
  Qed.
End VanityProofs.

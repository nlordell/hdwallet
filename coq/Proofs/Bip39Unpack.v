(** The 11-bit unpacking loop of [from_phrase_str] computes the base-256 digits of the phrase
    read as a base-2048 number (DESIGN.md Appendix A.1).

    The word indices [l] are the integer [X = of_digits 2048 l]; the core of the loop invariant
    [Inv] is [bo <= 8 /\ acc = X mod 2^64 /\ be_val out = X / 2^bo]. *)
From Coq Require Import String.
From Coq Require Import List NArith Lia PeanoNat.
From HDW Require Import Lib.Outcome Lib.Radix Lib.Bits Lib.Bytes Model.Bip39 Proofs.WordlistProofs.
Import ListNotations.
Open Scope N_scope.

Lemma pow2_pos k : 0 < 2 ^ k.
Proof. pose proof (pow2_nz k). lia. Qed.

(** [acc = (acc << 11) | index], in 64 bits *)
Lemma step_acc x i : i < 2048 ->
  (N.lor (N.shiftl (x mod 2 ^ 64) 11) i) mod 2 ^ 64 = (x * 2048 + i) mod 2 ^ 64.
Proof.
  intros Hi. rewrite lor_add by (apply land_shiftl_low; exact Hi).
  rewrite N.shiftl_mul_pow2. change (2 ^ 11) with 2048.
  rewrite N.add_mod, N.mul_mod_idemp_l, <- N.add_mod by apply pow2_nz. reflexivity.
Qed.

(** [(acc >> s) & 0xff] is a byte of [x] itself as long as it lies within the 64 bits kept *)
Lemma acc_byte x s : s + 8 <= 64 -> N.land (N.shiftr (x mod 2 ^ 64) s) 255 = (x / 2 ^ s) mod 256.
Proof.
  intros H. change 255 with (N.ones 8). rewrite shiftr_land_ones.
  change 256 with (2 ^ 8). apply extract_mod, H.
Qed.

(** [written x bo out]: the bytes [out] are [x] without its lowest [bo] bits.  The loop's
    bookkeeping is linear arithmetic over [bo] and lengths; keeping the quotient behind this
    name keeps it out of [lia]'s sight. *)
Definition written (x bo : N) (out : bytes) : Prop := be_val out = x / 2 ^ bo /\ bytes_ok out.

Lemma written_byte x s bo out : bo = s + 8 -> written x bo out ->
  written x s (out ++ [(x / 2 ^ s) mod 256]).
Proof.
  intros -> [Hv Hok]. split.
  - unfold be_val in *. rewrite of_digits_snoc, Hv, <- div_pow2_pow2. change (2 ^ 8) with 256.
    rewrite N.mul_comm. symmetry. apply N.div_mod. discriminate.
  - apply bytes_ok_app. split; [exact Hok|].
    constructor; [apply N.mod_lt; discriminate|constructor].
Qed.

Lemma written_word x bo out i : i < 2048 -> written x bo out -> written (x * 2048 + i) (bo + 11) out.
Proof.
  intros Hi [Hv Hok]. split; [|exact Hok].
  rewrite Hv, (N.add_comm bo), <- div_pow2_pow2. change (2 ^ 11) with 2048.
  rewrite N.div_add_l, (N.div_small i) by (exact Hi || discriminate). rewrite N.add_0_r. reflexivity.
Qed.

(** [Inv x k (acc, bo, out)]: after [k] words whose indices make the number [x] *)
Definition Inv (x : N) (k : nat) (st : ustate) : Prop :=
  let '(acc, bo, out) := st in
  bo <= 8 /\ (k <> 0%nat -> 1 <= bo) /\ acc = x mod 2 ^ 64 /\ be_val out = x / 2 ^ bo /\ bytes_ok out
  /\ 8 * N.of_nat (length out) + bo = 11 * N.of_nat k.

(** the form in which the proofs take [Inv]: the two conjuncts about [out] are [written] *)
Lemma Inv_iff x k acc bo out :
  Inv x k (acc, bo, out) <->
  bo <= 8 /\ (k <> 0%nat -> 1 <= bo) /\ acc = x mod 2 ^ 64 /\ written x bo out
  /\ 8 * N.of_nat (length out) + bo = 11 * N.of_nat k.
Proof. unfold Inv, written. tauto. Qed.

Lemma drain_done f len acc bo out : bo <= 8 -> drain f len acc bo out = Ok (bo, out).
Proof. intros H. destruct f; cbn [drain]; rewrite (proj2 (N.ltb_ge 8 bo) H); reflexivity. Qed.

Lemma drain_more f len acc bo out : 8 < bo -> (length out < len)%nat ->
  drain (S f) len acc bo out = drain f len acc (bo - 8) (out ++ [N.land (N.shiftr acc (bo - 8)) 255]).
Proof.
  intros Hbo Hlen. cbn [drain].
  rewrite (proj2 (N.ltb_lt 8 bo) Hbo), (proj2 (Nat.leb_gt len (length out)) Hlen). reflexivity.
Qed.

(** With fuel for every byte due, within the bits [acc] keeps and within the [len] bytes of
    the buffer, [drain] writes bytes of [x] until at most 8 bits are pending. *)
Lemma drain_spec len x : forall f bo out,
  bo <= 8 * N.of_nat f -> bo <= 64 ->
  8 * N.of_nat (length out) + bo <= 8 * N.of_nat len + 8 -> written x bo out ->
  exists bo' out', drain f len (x mod 2 ^ 64) bo out = Ok (bo', out')
    /\ bo' <= 8 /\ (1 <= bo -> 1 <= bo') /\ written x bo' out'
    /\ 8 * N.of_nat (length out') + bo' = 8 * N.of_nat (length out) + bo.
Proof.
  induction f as [|f IH]; intros bo out Hf H64 Hroom W;
    (destruct (N.le_gt_cases bo 8) as [Hle|Hgt];
     [exists bo, out; rewrite drain_done by exact Hle; auto|]).
  - lia.
  - rewrite drain_more by lia. rewrite acc_byte by lia.
    destruct (IH (bo - 8) (out ++ [(x / 2 ^ (bo - 8)) mod 256])) as (bo' & out' & E & H1 & H2 & W' & H3).
    + lia.
    + lia.
    + rewrite app_length. cbn [length]. lia.
    + apply (written_byte x (bo - 8) bo); [lia|exact W].
    + rewrite app_length in H3. cbn [length] in H3.
      exists bo', out'. repeat (split; [assumption || lia|]). lia.
Qed.

Lemma step_spec len x k st w i :
  Inv x k st -> search w = Some i ->
  11 * N.of_nat (S k) <= 8 * N.of_nat len + 8 ->
  exists st', step len st w = Ok st' /\ Inv (x * 2048 + i) (S k) st'.
Proof.
  destruct st as [[acc bo] out]. intros HI Hs Hroom.
  apply Inv_iff in HI as (Hbo & _ & -> & W & Hlen).
  apply search_sound in Hs as Hi. destruct Hi as [_ Hi].
  unfold step. rewrite Hs, step_acc by exact Hi.
  destruct (drain_spec len (x * 2048 + i) 3 (bo + 11) out) as (bo' & out' & -> & H1 & H2 & W' & H3).
  - change (N.of_nat 3) with 3. lia.
  - lia.
  - lia.
  - apply written_word; assumption.
  - cbn [bind fst snd]. eexists. split; [reflexivity|].
    apply Inv_iff. repeat (split; [assumption || lia|]). lia.
Qed.

Fixpoint lookup_all (ws : list text) : option (list N) :=
  match ws with
  | [] => Some []
  | w :: r =>
      match search w with
      | None => None
      | Some i => match lookup_all r with Some l => Some (i :: l) | None => None end
      end
  end.

Lemma lookup_all_forall2 ws : forall l,
  lookup_all ws = Some l <-> Forall2 (fun w i => search w = Some i) ws l.
Proof.
  induction ws as [|w r IH]; cbn [lookup_all]; intros l; split; intros H.
  - inversion H. constructor.
  - inversion H. reflexivity.
  - destruct (search w) as [i|] eqn:E; [|discriminate].
    destruct (lookup_all r) as [l'|] eqn:E'; [|discriminate]. inversion H; subst.
    constructor; [exact E|]. apply IH. reflexivity.
  - inversion H as [|? i ? l' Hw Hr]; subst. rewrite Hw.
    apply IH in Hr. rewrite Hr. reflexivity.
Qed.

Lemma lookup_all_unknown ws w : In w ws -> search w = None -> lookup_all ws = None.
Proof.
  intros Hin Hw. induction ws as [|w' r IH]; [destruct Hin|]. cbn [lookup_all].
  destruct Hin as [->|Hin]; [rewrite Hw; reflexivity|].
  rewrite (IH Hin). destruct (search w'); reflexivity.
Qed.

Lemma lookup_all_ok ws l : lookup_all ws = Some l -> digits_ok 2048 l /\ map word l = ws.
Proof.
  intros H. apply lookup_all_forall2 in H. induction H as [|w i ws l Hw _ [IH1 IH2]].
  - split; constructor.
  - apply search_sound in Hw as [Hw Hi]. split; [constructor; assumption|].
    cbn [map]. rewrite Hw, IH2. reflexivity.
Qed.

Lemma lookup_all_length ws l : lookup_all ws = Some l -> length l = length ws.
Proof. intros H. apply lookup_all_ok in H as [_ <-]. symmetry. apply map_length. Qed.

Lemma lookup_all_words l : digits_ok 2048 l -> lookup_all (map word l) = Some l.
Proof.
  induction 1 as [|i l Hi _ IH]; [reflexivity|].
  cbn [map lookup_all]. rewrite search_word by exact Hi. rewrite IH. reflexivity.
Qed.

(** The loop over the whole phrase: an ordinary error at the first unknown word, otherwise the
    invariant for the number spelled by the indices.  No write is out of bounds as long as
    [11 * words <= 8 * len + 8]. *)
Lemma unpack_loop_spec len ws : forall x k st,
  Inv x k st ->
  11 * N.of_nat (k + length ws) <= 8 * N.of_nat len + 8 ->
  match lookup_all ws with
  | None => unpack_loop len ws st = Err
  | Some l => exists st', unpack_loop len ws st = Ok st'
                /\ Inv (fold_left (fun a d => a * 2048 + d) l x) (k + length ws) st'
  end.
Proof.
  induction ws as [|w r IH]; intros x k st HI Hroom.
  - cbn [lookup_all unpack_loop fold_left length]. exists st. rewrite Nat.add_0_r. split; [reflexivity|exact HI].
  - cbn [lookup_all unpack_loop]. cbn [length] in Hroom.
    destruct (search w) as [i|] eqn:E.
    2:{ destruct st as [[acc bo] out]. unfold step. rewrite E. reflexivity. }
    destruct (step_spec len x k st w i HI E) as (st1 & -> & HI1); [lia|].
    cbn [bind length]. rewrite <- Nat.add_succ_comm in *.
    specialize (IH (x * 2048 + i) (S k) st1 HI1 Hroom).
    destruct (lookup_all r) as [l|]; exact IH.
Qed.

Lemma Inv_init : Inv 0 0 (0, 0, []).
Proof.
  unfold Inv. repeat split; try reflexivity; try lia. constructor.
Qed.

Corollary unpack_loop_top len ws :
  11 * N.of_nat (length ws) <= 8 * N.of_nat len + 8 ->
  match lookup_all ws with
  | None => unpack_loop len ws (0, 0, []) = Err
  | Some l => exists st', unpack_loop len ws (0, 0, []) = Ok st'
                /\ Inv (of_digits 2048 l) (length ws) st'
  end.
Proof.
  intros H. exact (unpack_loop_spec len ws 0 0%nat (0, 0, []) Inv_init H).
Qed.

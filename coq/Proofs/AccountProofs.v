(** Proofs for C04 — key acceptance, public key, address, EIP-55 ([Model/Account.v]).

    [key_new_spec] says in one disjunction which byte strings are keys and which key they are;
    the acceptance theorems of [Props/C04.v] are its cases.  [eip55_body] gives the displayed
    address character by character, [checksum_char] what the checksum does to one character. *)
From Coq Require Import String.
From Coq Require Import List NArith Lia Bool PeanoNat.
From HDW Require Import Lib.Outcome Lib.Bytes Lib.Hex Model.Bip32 Model.Account Spec.AccountSpec.
From HDW Require Import Proofs.Bip32Proofs.
Import ListNotations.
Open Scope N_scope.

(** * Which byte strings are keys *)

(** [from_bytes] of elliptic-curve is the [from_slice] that hdk.rs calls on 32 bytes *)
Lemma secret_from_bytes_eq b : secret_from_bytes b = secret_from_slice b.
Proof.
  unfold secret_from_bytes, secret_from_slice. cbv zeta. change curve_n with secp256k1_n.
  rewrite N.ltb_antisym. destruct (secp256k1_n <=? be_val b), (be_val b =? 0); reflexivity.
Qed.

(** Lengths 24..32 are decided by the scalar check on the big-endian value (left-padding with
    zeros does not change it); every other length is an error. *)
Lemma key_new_eq b :
  key_new b = if ((24 <=? length b) && (length b <=? 32))%nat then secret_from_slice b else Err.
Proof.
  unfold key_new. cbv zeta. rewrite !secret_from_bytes_eq, !secret_from_slice_eq, be_val_pad.
  destruct (Nat.eqb_spec (length b) 32) as [->|Hne]; [reflexivity|].
  replace (length b <? 32)%nat with (length b <=? 32)%nat by lia. reflexivity.
Qed.

Lemma key_new_spec b :
  let accepted := (24 <= length b <= 32)%nat /\ 1 <= be_val b < curve_n in
  (accepted /\ key_new b = Ok (be_val b)) \/ (~ accepted /\ key_new b = Err).
Proof.
  rewrite key_new_eq, secret_from_slice_eq. cbv zeta. change curve_n with secp256k1_n.
  destruct (_ && _) eqn:L; [|right; split; [lia|reflexivity]].
  destruct (bad_scalar (be_val b)) eqn:B; [right|left]; (split; [|reflexivity]).
  - apply not_false_iff_true in B. rewrite bad_scalar_false in B. lia.
  - apply bad_scalar_false in B. lia.
Qed.

(** [key_new_spec] at the lengths 24..32, in the form of [C04_accept_24_32].  The second half is
    not the contrapositive of the first: out of range is the ordinary error, not a panic. *)
Lemma key_accept b :
  (24 <= length b <= 32)%nat ->
  (key_new b = Ok (be_val b) <-> 1 <= be_val b < curve_n)
  /\ (~ (1 <= be_val b < curve_n) -> key_new b = Err).
Proof.
  intros Hlen. destruct (key_new_spec b) as [[[_ Hr] ->]|[Hn ->]].
  - split; [split; [intros _; exact Hr|reflexivity]|intros Hc; contradiction].
  - split; [split; [discriminate|tauto]|reflexivity].
Qed.

Lemma key_new_out b : (length b < 24 \/ length b > 32)%nat -> key_new b = Err.
Proof.
  intros Hlen. destruct (key_new_spec b) as [[[Hl _] _]|[_ E]]; [lia|exact E].
Qed.

Lemma key_value b k :
  key_new b = Ok k -> k = be_val b /\ 1 <= k < curve_n /\ (24 <= length b <= 32)%nat.
Proof.
  destruct (key_new_spec b) as [[[Hl Hr] ->]|[_ ->]]; [intros [= <-]; auto|discriminate].
Qed.

Lemma key_new_inj b1 b2 k :
  bytes_ok b1 -> bytes_ok b2 -> length b1 = length b2 ->
  key_new b1 = Ok k -> key_new b2 = Ok k -> b1 = b2.
Proof.
  intros O1 O2 L H1 H2. apply key_value in H1 as (E1 & _), H2 as (E2 & _).
  apply be_val_inj; congruence.
Qed.

Lemma secret_length k : length (secret k) = 32%nat.
Proof. apply be_fixed_length. Qed.

Lemma secret_ok k : bytes_ok (secret k).
Proof. apply be_fixed_ok. Qed.

Lemma secret_roundtrip k : 1 <= k < curve_n -> key_new (secret k) = Ok k.
Proof.
  intros Hk. assert (Hv : be_val (secret k) = k) by (apply be_val_secret, Hk).
  rewrite <- Hv at 2. apply key_accept; rewrite ?secret_length, ?Hv; [lia|exact Hk].
Qed.

Lemma secret_of_short_key b k :
  bytes_ok b -> key_new b = Ok k -> secret k = repeat 0 (32 - length b) ++ b.
Proof.
  intros Hok H. apply key_value in H as (-> & _ & Hlen). apply be_fixed_pad; [exact Hok|lia].
Qed.

(** * Public key and address *)

Section Address.
  Variable keccak : bytes -> bytes.
  Variable pubkey65 : N -> bytes.
  Hypothesis keccak_length : forall x, length (keccak x) = 32%nat.
  Hypothesis pubkey65_length : forall k, 1 <= k < curve_n -> length (pubkey65 k) = 65%nat.
  Hypothesis pubkey65_head : forall k, 1 <= k < curve_n -> hd 0 (pubkey65 k) = 4.

  Lemma public_shape k :
    1 <= k < curve_n ->
    public pubkey65 k = 4 :: skipn 1 (pubkey65 k) /\ length (skipn 1 (pubkey65 k)) = 64%nat.
  Proof using pubkey65_length pubkey65_head.
    intros Hk. unfold public.
    pose proof (pubkey65_length k Hk) as L. pose proof (pubkey65_head k Hk) as Hd.
    destruct (pubkey65 k) as [|c r]; [discriminate|].
    cbn [hd] in Hd. subst c. cbn [skipn]. injection L as L. split; [reflexivity|exact L].
  Qed.

  Lemma address_eq k :
    1 <= k < curve_n ->
    address keccak pubkey65 k = Ok (skipn 12 (keccak (skipn 1 (pubkey65 k))))
    /\ length (skipn 1 (pubkey65 k)) = 64%nat
    /\ length (skipn 12 (keccak (skipn 1 (pubkey65 k)))) = 20%nat
    /\ exists pre, keccak (skipn 1 (pubkey65 k)) = pre ++ skipn 12 (keccak (skipn 1 (pubkey65 k)))
                   /\ length pre = 12%nat.
  Proof using keccak_length pubkey65_length pubkey65_head.
    intros Hk. unfold address, public. cbv zeta.
    rewrite (pubkey65_head k Hk). change (4 =? 4) with true. cbv iota.
    split; [reflexivity|]. split; [apply (public_shape k Hk)|].
    split; [rewrite skipn_length, keccak_length; reflexivity|].
    exists (firstn 12 (keccak (skipn 1 (pubkey65 k)))). split.
    - symmetry. apply firstn_skipn.
    - rewrite firstn_length, keccak_length. reflexivity.
  Qed.
End Address.

(** * EIP-55 *)

Lemma nibbles_cons b d : nibbles (b :: d) = b / 16 :: b mod 16 :: nibbles d.
Proof. reflexivity. Qed.

Lemma nibbles_length d : length (nibbles d) = (2 * length d)%nat.
Proof. induction d as [|b d IH]; [reflexivity|]. rewrite nibbles_cons. cbn [length]. rewrite IH. lia. Qed.

Lemma nibble_at_SS b d j : nibble_at (b :: d) (S (S j)) = nibble_at d j.
Proof.
  unfold nibble_at. cbv zeta. rewrite Nat.even_succ_succ.
  replace (S (S j)) with (j + 1 * 2)%nat by lia.
  rewrite Nat.div_add by lia. rewrite Nat.add_1_r. reflexivity.
Qed.

Lemma nibble_at_nibbles d : bytes_ok d -> forall i, nibble_at d i = nth i (nibbles d) 0.
Proof.
  induction 1 as [|b d Hb _ IH]; intros i.
  - unfold nibble_at. cbv zeta. destruct (i / 2)%nat; destruct (Nat.even i); destruct i; reflexivity.
  - destruct i as [|[|j]].
    + change (nibble_at (b :: d) 0) with ((b / 16) mod 16). rewrite nibbles_cons. cbn [nth]. lia.
    + change (nibble_at (b :: d) 1) with (b mod 16). reflexivity.
    + rewrite nibble_at_SS, nibbles_cons. cbn [nth]. apply IH.
Qed.

Lemma checksum_case_length d s : forall i, length (checksum_case d i s) = length s.
Proof. induction s as [|c r IH]; intros i; [reflexivity|]. cbn [checksum_case length]. rewrite IH. reflexivity. Qed.

Lemma checksum_case_nth d s : forall i j x,
  (j < length s)%nat ->
  nth j (checksum_case d i s) x
  = if 8 <=? nibble_at d (i + j) then to_upper (nth j s x) else nth j s x.
Proof.
  induction s as [|c r IH]; intros i j x Hj; [cbn [length] in Hj; lia|].
  cbn [checksum_case]. destruct j as [|j].
  - rewrite Nat.add_0_r. reflexivity.
  - cbn [nth]. rewrite IH by (cbn [length] in Hj; lia).
    replace (S i + j)%nat with (i + S j)%nat by lia. reflexivity.
Qed.

Lemma checksum_case_lower d s : forall i, map to_lower (checksum_case d i s) = map to_lower s.
Proof.
  induction s as [|c r IH]; intros i; [reflexivity|].
  cbn [checksum_case map]. rewrite IH.
  destruct (8 <=? nibble_at d i); [rewrite to_lower_upper|]; reflexivity.
Qed.

(** a character of [hex_encode]: a decimal digit or a lower-case letter a..f *)
Definition hex_char (c : N) : Prop := 48 <= c <= 57 \/ hex_letter c.

Lemma hex_digit_char n : n < 16 -> hex_char (hex_digit n).
Proof.
  intros Hn. unfold hex_char, hex_letter, hex_digit. destruct (N.ltb_spec n 10); lia.
Qed.

Lemma hex_encode_chars a : bytes_ok a -> Forall hex_char (hex_encode a).
Proof.
  induction 1 as [|b r Hb _ IH]; [constructor|].
  cbn [hex_encode]. constructor; [apply hex_digit_char; lia|].
  constructor; [apply hex_digit_char; lia|exact IH].
Qed.

(** what the checksum does to one such character, given the nibble that decides *)
Lemma checksum_char c nb :
  hex_char c ->
  let x := if 8 <=? nb then to_upper c else c in
  let up := hex_letter c /\ 8 <= nb in
  (up -> x = c - 32) /\ (~ up -> x = c)
  /\ (is_upper x = true <-> up) /\ (is_upper x = true -> hex_LETTER x).
Proof.
  unfold hex_char, hex_letter, hex_LETTER, to_upper, is_lower, is_upper. intros Hc. cbv zeta.
  destruct (N.leb_spec 8 nb) as [Hn|Hn]; [|repeat split; intros; lia].
  destruct ((97 <=? c) && (c <=? 122)) eqn:E; repeat split; intros; lia.
Qed.

Section Eip55.
  Variable keccak : bytes -> bytes.
  Hypothesis keccak_ok : forall x, bytes_ok (keccak x).

  (** "0x", then the lower-case hex digits of the address; what the checksum does to each *)
  Lemma eip55_body a :
    bytes_ok a -> length a = 20%nat ->
    exists body,
      eip55 keccak a = s2l "0x" ++ body
      /\ length body = 40%nat
      /\ map to_lower body = hex_encode a
      /\ forall i, (i < 40)%nat ->
           let c := nth i (hex_encode a) 0 in
           let x := nth i body 0 in
           let up := hex_letter c /\ 8 <= nth i (nibbles (keccak (hex_encode a))) 0 in
           (up -> x = c - 32) /\ (~ up -> x = c)
           /\ (is_upper x = true <-> up) /\ (is_upper x = true -> hex_LETTER x).
  Proof using keccak_ok.
    intros Hok Hlen. exists (checksum_case (keccak (hex_encode a)) 0 (hex_encode a)).
    assert (L : length (hex_encode a) = 40%nat) by (rewrite hex_encode_length, Hlen; reflexivity).
    split; [reflexivity|]. split; [rewrite checksum_case_length; exact L|].
    split; [rewrite checksum_case_lower; apply hex_encode_lower; exact Hok|].
    intros i Hi. rewrite <- L in Hi.
    rewrite (checksum_case_nth _ _ 0 i 0 Hi), Nat.add_0_l, nibble_at_nibbles by apply keccak_ok.
    apply checksum_char, Forall_nth; [apply hex_encode_chars, Hok|exact Hi].
  Qed.
End Eip55.

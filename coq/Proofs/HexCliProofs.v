(** Proofs about [Model/HexCli.v] (property C19).  [permissive_hex t] is [hex_decode] of
    [body t], so every statement about it is one about [hex_decode]. *)
From Coq Require Import String.
From Coq Require Import List NArith Lia Bool.
From HDW Require Import Lib.Outcome Lib.Bytes Lib.Hex Model.HexCli.
Import ListNotations.
Open Scope N_scope.

(** [t] spells the bytes [b]: after dropping white space and one optional [0x], the
    remaining characters are the hex digits of [b] in either case. *)
Definition spelling_of (b : bytes) (t : text) : Prop :=
  exists h, (strip_ws t = h \/ strip_ws t = s2l "0x" ++ h) /\ map to_lower h = hex_encode b.

Definition lower_hex_char (c : N) : bool := is_digit c || ((97 <=? c) && (c <=? 102)).

(** What [permissive_hex] hands to [hex::decode]: white space and one leading [0x] dropped. *)
Definition body (t : text) : text :=
  match strip_prefix (s2l "0x") (strip_ws t) with Some r => r | None => strip_ws t end.

Lemma hex_digit_lower_char n : n < 16 -> lower_hex_char (hex_digit n) = true.
Proof.
  intros Hn. unfold lower_hex_char, is_digit, hex_digit. destruct (N.ltb_spec n 10); lia.
Qed.

Lemma hex_encode_lower_chars bs : bytes_ok bs -> forallb lower_hex_char (hex_encode bs) = true.
Proof.
  induction 1 as [|x r Hx _ IH]; [reflexivity|].
  cbn [hex_encode forallb]. rewrite !hex_digit_lower_char by lia. exact IH.
Qed.

Lemma strip_ws_hex h : forallb is_hex h = true -> strip_ws h = h.
Proof.
  induction h as [|c r IH]; [reflexivity|]. cbn [forallb]. intros H.
  apply andb_true_iff in H as [Hc Hr]. cbn [strip_ws filter]. fold (strip_ws r). rewrite IH by exact Hr.
  unfold is_hex in Hc. destruct (hex_val c) as [v|] eqn:Hv; [apply hex_val_spec in Hv|discriminate].
  replace (is_whitespace c) with false by (unfold is_whitespace; lia). reflexivity.
Qed.

Lemma permissive_hex_body t : permissive_hex t = of_option (hex_decode (utf8 (body t))).
Proof. reflexivity. Qed.

Lemma body_cases t : strip_ws t = body t \/ strip_ws t = s2l "0x" ++ body t.
Proof.
  unfold body. destruct (strip_prefix (s2l "0x") (strip_ws t)) as [r|] eqn:E.
  - right. apply strip_prefix_some, E.
  - left. reflexivity.
Qed.

Lemma body_spelled t h :
  forallb is_hex h = true -> strip_ws t = h \/ strip_ws t = s2l "0x" ++ h -> body t = h.
Proof.
  intros Hx [E|E]; unfold body; rewrite E.
  - rewrite all_hex_no_0x by exact Hx. reflexivity.
  - rewrite strip_prefix_app. reflexivity.
Qed.

Lemma permissive_hex_complete b t : bytes_ok b -> spelling_of b t -> permissive_hex t = Ok b.
Proof.
  intros Hb (h & Hs & Hh). pose proof (hex_decode_complete h b Hb Hh) as Hd.
  pose proof (hex_decode_all_hex _ _ Hd) as Hx.
  rewrite permissive_hex_body, (body_spelled t h Hx Hs), utf8_ascii, Hd by (apply all_hex_ascii; exact Hx).
  reflexivity.
Qed.

Lemma permissive_hex_sound b t : permissive_hex t = Ok b -> bytes_ok b /\ spelling_of b t.
Proof.
  rewrite permissive_hex_body. destruct (hex_decode (utf8 (body t))) as [b'|] eqn:Hd; [|discriminate]. intros [= ->].
  rewrite (hex_decode_utf8 _ _ Hd) in Hd. destruct (hex_decode_sound _ _ Hd) as (Hok & Hmap & _).
  split; [exact Hok|]. exists (body t). split; [apply body_cases|exact Hmap].
Qed.

Theorem total t : graceful (permissive_hex t).
Proof. apply graceful_of_option. Qed.

Theorem reject t : (~ exists b, bytes_ok b /\ spelling_of b t) -> permissive_hex t = Err.
Proof.
  intros H. apply graceful_not_ok_err; [apply total|].
  intros b Hb. apply H. exists b. apply permissive_hex_sound; exact Hb.
Qed.

Theorem roundtrip b : bytes_ok b -> hex_decode_cmd (hex_encode_cmd b) = Ok b.
Proof.
  intros Hb. apply permissive_hex_complete; [exact Hb|].
  exists (hex_encode b). split; [right|apply hex_encode_lower; exact Hb].
  unfold hex_encode_cmd, strip_ws. rewrite !filter_app. fold (strip_ws (hex_encode b)).
  rewrite (strip_ws_hex (hex_encode b)) by (apply hex_encode_is_hex; exact Hb).
  change (filter _ [10]) with (@nil N). rewrite app_nil_r. reflexivity.
Qed.

Theorem format b :
  bytes_ok b ->
  exists ds, hex_encode_cmd b = [48; 120] ++ ds ++ [10]
    /\ length ds = (2 * length b)%nat
    /\ forallb lower_hex_char ds = true
    /\ hex_decode ds = Some b.
Proof.
  intros Hb. exists (hex_encode b). split; [reflexivity|]. split; [apply hex_encode_length|].
  split; [apply hex_encode_lower_chars|apply hex_decode_encode]; exact Hb.
Qed.

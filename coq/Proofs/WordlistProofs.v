(** Facts about the generated BIP-39 English word list ([Model/Wordlist.v]) and about
    [search] / [word].  The list is a closed constant of 2048 entries: what depends on its
    contents is one boolean pass over it ([wordlist_okb]: length, adjacent order, letters) run
    by [vm_compute]; what the pass establishes is proved for any list ([wordlist_okb_spec]). *)
From Coq Require Import List NArith Lia Bool PeanoNat Sorted.
From HDW Require Import Lib.Bytes Model.Wordlist Model.Bip39 Spec.Bip39Spec.
Import ListNotations.
Open Scope N_scope.

Lemma lex_ltb_trans a : forall b c, lex_ltb a b = true -> lex_ltb b c = true -> lex_ltb a c = true.
Proof.
  induction a as [|x a IH]; intros [|y b] [|z c]; cbn [lex_ltb]; try discriminate; try reflexivity.
  rewrite !orb_true_iff, !andb_true_iff, !N.ltb_lt, !N.eqb_eq.
  intros [H1|[-> H1]] [H2|[-> H2]].
  - left. lia.
  - left. exact H1.
  - left. exact H2.
  - right. split; [reflexivity|]. eapply IH; eassumption.
Qed.

Lemma lex_ltb_irrefl a : lex_ltb a a = false.
Proof.
  induction a as [|x a IH]; [reflexivity|]. cbn [lex_ltb].
  rewrite N.ltb_irrefl, N.eqb_refl, IH. reflexivity.
Qed.

Lemma sorted_adjb_strongly l : sorted_adjb l = true -> StronglySorted lex_lt l.
Proof.
  intros H. apply Sorted_StronglySorted.
  { intros a b c. unfold lex_lt. apply lex_ltb_trans. }
  induction l as [|a r IH]; [constructor|].
  destruct r as [|b r'].
  - constructor; constructor.
  - cbn [sorted_adjb] in H. apply andb_true_iff in H as [Hab Hr].
    constructor; [apply IH; exact Hr|]. constructor. exact Hab.
Qed.

Lemma sorted_nodup l : StronglySorted lex_lt l -> NoDup l.
Proof.
  induction 1 as [|a l Hs IH Ha]; constructor; [|exact IH].
  intros Hin. rewrite Forall_forall in Ha. specialize (Ha a Hin). unfold lex_lt in Ha.
  rewrite lex_ltb_irrefl in Ha. discriminate.
Qed.

Definition word_okb (w : text) : bool := negb (Nat.eqb (length w) 0) && forallb is_lower w.

Lemma lower_not_whitespace c : 97 <= c <= 122 -> is_whitespace c = false.
Proof. unfold is_whitespace. lia. Qed.

Lemma word_okb_spec w : word_okb w = true -> lower_ascii_word w /\ nonempty_no_ws w.
Proof.
  unfold word_okb. rewrite andb_true_iff, negb_true_iff, Nat.eqb_neq, forallb_forall.
  intros [Hne Hl].
  assert (L : lower_ascii_word w).
  { apply Forall_forall. intros c Hc. apply Hl in Hc. unfold is_lower in Hc. lia. }
  split; [exact L|]. split.
  - intros ->. apply Hne. reflexivity.
  - eapply Forall_impl; [|exact L]. exact lower_not_whitespace.
Qed.

(** what BIP-39 / [Wordlist::parse] require of a word list, as one pass over it *)
Definition wordlist_okb (l : list text) : bool :=
  Nat.eqb (length l) 2048 && sorted_adjb l && forallb word_okb l.

Lemma wordlist_okb_spec l : wordlist_okb l = true ->
  length l = 2048%nat /\ StronglySorted lex_lt l
  /\ Forall lower_ascii_word l /\ Forall nonempty_no_ws l.
Proof.
  unfold wordlist_okb. intros H.
  apply andb_true_iff in H as [H Hw]. apply andb_true_iff in H as [Hlen Hs].
  split; [apply Nat.eqb_eq, Hlen|]. split; [apply sorted_adjb_strongly, Hs|].
  apply Forall_and_inv, Forall_forall. intros w Hin. rewrite forallb_forall in Hw.
  apply word_okb_spec, Hw, Hin.
Qed.

Lemma wordlist_ok :
  length wordlist = 2048%nat /\ StronglySorted lex_lt wordlist
  /\ Forall lower_ascii_word wordlist /\ Forall nonempty_no_ws wordlist.
Proof. apply wordlist_okb_spec. vm_compute. reflexivity. Qed.

Lemma wordlist_length : length wordlist = 2048%nat.
Proof. exact (proj1 wordlist_ok). Qed.

(** The list is strictly increasing in Rust's [str] order (the [debug_assert!] of
    [Wordlist::parse]).  [search] is modelled as a scan from the front; of the order the proofs
    use only that it rules out duplicates ([wordlist_nodup]), so that a word has one index. *)
Lemma wordlist_sorted : StronglySorted lex_lt wordlist.
Proof. exact (proj1 (proj2 wordlist_ok)). Qed.

Lemma wordlist_nodup : NoDup wordlist.
Proof. exact (sorted_nodup _ wordlist_sorted). Qed.

Lemma wordlist_lower_ascii : Forall lower_ascii_word wordlist.
Proof. exact (proj1 (proj2 (proj2 wordlist_ok))). Qed.

Lemma text_eqb_eq a : forall b, text_eqb a b = true <-> a = b.
Proof.
  induction a as [|x a IH]; intros [|y b]; cbn [text_eqb]; split; intros H;
    try reflexivity; try discriminate.
  - apply andb_true_iff in H as [E H]. apply N.eqb_eq in E. apply IH in H. subst. reflexivity.
  - inversion H; subst. rewrite N.eqb_refl. cbn [andb]. apply IH. reflexivity.
Qed.

Lemma index_of_sound w l : forall k i,
  index_of w l k = Some i ->
  exists j, i = k + N.of_nat j /\ (j < length l)%nat /\ nth j l [] = w.
Proof.
  induction l as [|x r IH]; intros k i H; cbn [index_of] in H; [discriminate|].
  destruct (text_eqb x w) eqn:E.
  - inversion H; subst. apply text_eqb_eq in E. exists 0%nat. cbn [length nth]. repeat split; lia || auto.
  - apply IH in H as (j & -> & Hj & Hn). exists (S j). cbn [length nth]. repeat split; lia || auto.
Qed.

Lemma index_of_none w l : forall k, index_of w l k = None -> ~ In w l.
Proof.
  induction l as [|x r IH]; intros k H; cbn [index_of] in H; [intros []|].
  destruct (text_eqb x w) eqn:E; [discriminate|].
  intros [->|Hin].
  - rewrite (proj2 (text_eqb_eq w w) eq_refl) in E. discriminate.
  - eapply IH; eassumption.
Qed.

Lemma index_of_nth l : NoDup l -> forall j k, (j < length l)%nat ->
  index_of (nth j l []) l k = Some (k + N.of_nat j).
Proof.
  induction 1 as [|x r Hx _ IH]; intros j k Hj; cbn [length] in Hj; [lia|].
  cbn [index_of]. destruct j as [|j]; cbn [nth].
  - rewrite (proj2 (text_eqb_eq x x) eq_refl). f_equal. lia.
  - destruct (text_eqb x (nth j r [])) eqn:E.
    + apply text_eqb_eq in E. destruct Hx. rewrite E. apply nth_In. lia.
    + rewrite IH by lia. f_equal. lia.
Qed.

Lemma search_sound w i : search w = Some i -> word i = w /\ i < 2048.
Proof.
  unfold search, word. intros H. apply index_of_sound in H as (j & -> & Hj & Hn).
  unfold text in Hj. rewrite wordlist_length in Hj. rewrite N.add_0_l, Nat2N.id. split; [exact Hn|lia].
Qed.

(* a lemma of its own: applied inside a proof to a hypothesis about [search], [index_of_none]
   makes [Qed] unfold [wordlist] *)
Lemma search_none w : search w = None -> ~ In w wordlist.
Proof. apply index_of_none. Qed.

Lemma search_word i : i < 2048 -> search (word i) = Some i.
Proof.
  intros Hi. unfold search, word. rewrite (index_of_nth _ wordlist_nodup).
  - f_equal. lia.
  - unfold text. rewrite wordlist_length. lia.
Qed.

Lemma word_in_list i : i < 2048 -> In (word i) wordlist.
Proof.
  intros Hi. unfold word. apply nth_In. rewrite wordlist_length. lia.
Qed.

Lemma word_nonempty_no_ws i : i < 2048 -> nonempty_no_ws (word i).
Proof.
  intros Hi. pose proof (proj2 (proj2 (proj2 wordlist_ok))) as H. rewrite Forall_forall in H.
  apply H, word_in_list, Hi.
Qed.

Lemma search_some_iff w : (exists i, search w = Some i) <-> In w wordlist.
Proof.
  split.
  - intros [i H]. apply search_sound in H as [<- Hi]. apply word_in_list; exact Hi.
  - intros Hin. destruct (search w) as [i|] eqn:E; [eauto|].
    destruct (search_none w E Hin).
Qed.

(** [wordlist_file_sha256] is what the translator computed over the bytes of the source file;
    the literal is the published SHA-256 of the official BIP-39 [english.txt]. *)
Lemma wordlist_digest_official :
  wordlist_file_sha256 =
  [0x2f; 0x5e; 0xed; 0x53; 0xa4; 0x72; 0x7b; 0x4b; 0xf8; 0x88; 0x0d; 0x8f; 0x3f; 0x19; 0x9e; 0xfc;
   0x90; 0xe5; 0x85; 0x03; 0x64; 0x6d; 0x9f; 0xf8; 0xef; 0xf3; 0xa2; 0xed; 0x3b; 0x24; 0xdb; 0xda].
Proof. reflexivity. Qed.

(** Member order of an object is irrelevant for [serde_json::Value]'s view when the member names are
    distinct: any permutation of the members gives the same value. *)
From Coq Require Import List NArith Bool Sorted Permutation.
From HDW Require Import Lib.Outcome Lib.Bytes Model.Json Model.Eip712Types Model.JsonText.
From HDW Require Import Spec.Eip712TypeSpec Proofs.TextOrder Proofs.JsonTextProofs.
Import ListNotations.
Open Scope N_scope.

Lemma obj_get_in_iff m : NoDup (map fst m) -> forall k v, obj_get k m = Some v <-> In (k, v) m.
Proof.
  induction m as [|[k' v'] r IH]; cbn [map fst obj_get In]; intros ND k v.
  - split; [discriminate|intros []].
  - inversion ND as [|? ? Hk' NDr]; subst. destruct (list_eqb k k') eqn:E.
    + apply list_eqb_spec in E. subst k'. split.
      * intros [= ->]. left. reflexivity.
      * intros [[= ->]|H]; [reflexivity|]. destruct (Hk' (in_map fst _ _ H)).
    + rewrite (IH NDr). split; [auto|]. intros [[= -> ->]|H]; [|exact H].
      rewrite list_eqb_refl in E. discriminate.
Qed.

Lemma sorted_assoc_ext : forall m1 m2 : list (text * json),
  StronglySorted text_lt (map fst m1) -> StronglySorted text_lt (map fst m2) ->
  (forall k, obj_get k m1 = obj_get k m2) -> m1 = m2.
Proof.
  intros m1 m2 S1 S2 H. apply (sorted_unique_by fst); [exact S1|exact S2|].
  intros [k v]. rewrite <- !obj_get_in_iff by (apply sorted_nodup; assumption). rewrite H. reflexivity.
Qed.

(** with distinct names, the last member with a given name is the only one: a permutation does not change it *)
Lemma last_member_perm f k : forall l l' cur, Permutation l l' -> NoDup (map fst l) ->
  last_member f k l cur = last_member f k l' cur.
Proof.
  intros l l' cur P. revert cur. induction P as [|[k1 x1] l l' P IH|[k1 x1] [k2 x2] l|l l' l'' P1 IH1 P2 IH2]; intros cur ND.
  - reflexivity.
  - cbn [last_member]. apply IH. cbn [map fst] in ND. inversion ND; assumption.
  - cbn [last_member]. cbn [map fst] in ND. inversion ND as [|? ? Hn1 ND']; subst.
    destruct (list_eqb k k2) eqn:E2, (list_eqb k k1) eqn:E1; try reflexivity.
    apply list_eqb_spec in E1, E2. subst. exfalso. apply Hn1. left. reflexivity.
  - rewrite IH1 by assumption. apply IH2.
    eapply Permutation_NoDup; [|exact ND]. apply Permutation_map. exact P1.
Qed.

Theorem to_value_member_order rnd l l' : Permutation l l' -> NoDup (map fst l) ->
  to_value rnd (TObj l) = to_value rnd (TObj l').
Proof.
  intros P ND. rewrite !to_value_obj. f_equal.
  assert (T : forall q, graceful (objs_fold (to_value rnd) q [])).
  { intros q. apply objs_fold_total, Forall_forall. intros kv _. apply to_value_total. }
  assert (OK : (exists m, objs_fold (to_value rnd) l [] = Ok m) <-> exists m, objs_fold (to_value rnd) l' [] = Ok m).
  { rewrite !objs_fold_ok. split; apply Permutation_Forall; [exact P|symmetry; exact P]. }
  (* [to_value] is total, so the two loops end in a map or in [Err], and both in the same way *)
  destruct (graceful_cases _ (T l)) as [[m E]|E], (graceful_cases _ (T l')) as [[m' E']|E'].
  - rewrite E, E'. f_equal. apply sorted_assoc_ext.
    + eapply objs_fold_sorted; [|exact E]. constructor.
    + eapply objs_fold_sorted; [|exact E']. constructor.
    + intros k. rewrite (objs_fold_get _ _ _ _ k E), (objs_fold_get _ _ _ _ k E').
      apply last_member_perm; assumption.
  - destruct (proj1 OK (ex_intro _ m E)) as [m' E2]. congruence.
  - destruct (proj2 OK (ex_intro _ m' E')) as [m2 E2]. congruence.
  - congruence.
Qed.

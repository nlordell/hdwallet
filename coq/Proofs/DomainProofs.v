(** Lemmas about [verify_domain] / [verify_domain_type] ([Model/Domain.v], C20): sub-sequences and
    their enumeration, the scan against the allowed list, and what a well-formed domain type
    ([domain_ok]) cannot contain. *)
From Coq Require Import String.
From Coq Require Import List NArith Bool.
From HDW Require Import Lib.Outcome Lib.Bytes Model.Eip712Kind Model.Domain Proofs.KindProofs.
Import ListNotations.
Open Scope N_scope.

(** * Sub-sequences and duplicate-free lists *)

Lemma sublist_trans {A} (a b c : list A) : sublist a b -> sublist b c -> sublist a c.
Proof.
  intros Hab Hbc. revert a Hab.
  induction Hbc as [c|x b c Hbc IH|x b c Hbc IH]; intros a Hab.
  - inversion Hab. constructor.
  - inversion Hab; subst; constructor; apply IH; assumption.
  - apply sublist_skip, IH, Hab.
Qed.

Lemma sublist_app_l {A} (p s l : list A) : sublist s l -> sublist s (p ++ l).
Proof. intros H. induction p as [|x p IH]; [exact H|]. cbn [app]. apply sublist_skip. exact IH. Qed.

Lemma sublist_incl {A} (s l : list A) : sublist s l -> forall x, In x s -> In x l.
Proof.
  induction 1 as [l|y s l _ IH|y s l _ IH]; intros x Hx; [destruct Hx| |right; auto].
  destruct Hx as [<-|Hx]; [left; reflexivity|right; auto].
Qed.

Lemma sublist_in {A} (a : A) s l : sublist (a :: s) l -> In a l.
Proof. intros H. apply (sublist_incl _ _ H). left. reflexivity. Qed.

Lemma sublist_map {A B} (f : A -> B) s l : sublist s l -> sublist (map f s) (map f l).
Proof. induction 1; cbn [map]; constructor; assumption. Qed.

Lemma sublist_NoDup {A} (s l : list A) : sublist s l -> NoDup l -> NoDup s.
Proof.
  induction 1 as [l|x s l H IH|x s l H IH]; rewrite ?NoDup_cons_iff.
  - constructor.
  - intros [Hx N]. split; [|exact (IH N)]. intros Hs. exact (Hx (sublist_incl _ _ H _ Hs)).
  - intros [_ N]. exact (IH N).
Qed.

Lemma sublist_pair_order {A} (l : list A) a b :
  NoDup l -> sublist [a; b] l -> sublist [b; a] l -> False.
Proof.
  induction l as [|x l IH]; intros N H1 H2; [inversion H1|].
  inversion N as [|? ? Hx N']; subst.
  inversion H1 as [|? ? ? H1'|? ? ? H1']; subst; inversion H2 as [|? ? ? H2'|? ? ? H2']; subst.
  - apply Hx. eapply sublist_in. exact H1'.
  - apply Hx. apply (sublist_incl _ _ H2'). right. left. reflexivity.
  - apply Hx. apply (sublist_incl _ _ H1'). right. left. reflexivity.
  - exact (IH N' H1' H2').
Qed.

Lemma all_sublists_spec {A} (l s : list A) : In s (all_sublists l) <-> sublist s l.
Proof.
  split.
  - revert s. induction l as [|x l IH]; intros s H.
    + destruct H as [<-|[]]. constructor.
    + cbn [all_sublists] in H. apply in_app_or in H as [H|H].
      * apply in_map_iff in H as (s' & <- & H). apply sublist_take. apply IH. exact H.
      * apply sublist_skip. apply IH. exact H.
  - induction 1 as [l|x l1 l2 H IH|x l1 l2 H IH]; cbn [all_sublists].
    + induction l as [|x l IH]; [left; reflexivity|]. apply in_or_app. right. exact IH.
    + apply in_or_app. left. apply in_map. exact IH.
    + apply in_or_app. right. exact IH.
Qed.

Lemma nonempty_sublists_spec {A} (l s : list A) :
  In s (nonempty_sublists l) <-> s <> [] /\ sublist s l.
Proof.
  unfold nonempty_sublists. rewrite filter_In, all_sublists_spec.
  assert (E : match s with [] => false | _ => true end = true <-> s <> [])
    by (destruct s; split; congruence).
  rewrite E. apply and_comm.
Qed.

Lemma nodup_app {A} (a b : list A) :
  NoDup a -> NoDup b -> (forall x, In x a -> ~ In x b) -> NoDup (a ++ b).
Proof.
  induction a as [|x a IH]; intros Na Nb D; [exact Nb|].
  inversion Na; subst. cbn [app]. constructor.
  - rewrite in_app_iff. intros [H|H]; [contradiction|]. apply (D x); [left; reflexivity|exact H].
  - apply IH; [assumption|assumption|]. intros y Hy. apply D. right. exact Hy.
Qed.

Lemma all_sublists_NoDup {A} (l : list A) : NoDup l -> NoDup (all_sublists l).
Proof.
  induction 1 as [|x l Hx N IH]; cbn [all_sublists]; [repeat constructor; intros []|].
  apply nodup_app; [|exact IH|].
  - clear Hx. induction IH as [|s ss Hs _ IH']; cbn [map]; constructor; [|exact IH'].
    intros H. apply in_map_iff in H as (s' & [= ->] & H). contradiction.
  - intros s H1 H2. apply in_map_iff in H1 as (s' & <- & _).
    apply all_sublists_spec in H2. apply Hx. eapply sublist_in. exact H2.
Qed.

Lemma nonempty_sublists_NoDup {A} (l : list A) : NoDup l -> NoDup (nonempty_sublists l).
Proof. intros N. unfold nonempty_sublists. apply NoDup_filter. apply all_sublists_NoDup. exact N. Qed.

Lemma nodup_fst_functional {A B} (l : list (A * B)) a b1 b2 :
  NoDup (map fst l) -> In (a, b1) l -> In (a, b2) l -> b1 = b2.
Proof.
  intros N H1 H2. apply in_split in H1 as (l1 & l2 & ->).
  rewrite map_app in N. apply NoDup_remove_2 in N. rewrite <- map_app in N.
  apply in_elt_inv in H2 as [[= ->]|H2]; [reflexivity|].
  destruct N. exact (in_map fst _ _ H2).
Qed.

(** * The scan *)

Lemma find_allowed_some name allowed k rest :
  find_allowed name allowed = Some (k, rest) ->
  exists pre, allowed = pre ++ (name, k) :: rest /\ ~ In name (map fst pre).
Proof.
  revert k rest. induction allowed as [|[n k'] r IH]; intros k rest H; [discriminate|].
  cbn [find_allowed] in H. destruct (list_eqb name n) eqn:E.
  - apply list_eqb_spec in E. inversion H; subst. exists []. split; [reflexivity|intros []].
  - destruct (IH _ _ H) as (pre & -> & Hn). exists ((n, k') :: pre). split; [reflexivity|].
    cbn [map fst]. intros [Hc|Hc]; [|contradiction].
    subst. rewrite list_eqb_refl in E. discriminate.
Qed.

Lemma verify_fold_sound ms : forall allowed rest,
  verify_fold allowed ms = Ok rest -> sublist (map member_pair ms) allowed.
Proof.
  induction ms as [|m r IH]; intros allowed rest H; [constructor|].
  cbn [verify_fold] in H.
  destruct (find_allowed (m_name m) allowed) as [[k rest']|] eqn:F; [|discriminate].
  destruct (kind_eqb (m_kind m) k) eqn:K; [|discriminate].
  apply kind_eqb_spec in K. apply find_allowed_some in F as (pre & -> & _).
  cbn [map]. apply sublist_app_l. unfold member_pair at 1. rewrite K.
  apply sublist_take. eapply IH. exact H.
Qed.

Lemma verify_fold_complete allowed : forall ms,
  NoDup (map fst allowed) -> sublist (map member_pair ms) allowed ->
  exists rest, verify_fold allowed ms = Ok rest.
Proof.
  induction allowed as [|[n k] l IH]; intros ms N H.
  - destruct ms; [|inversion H]. exists []. reflexivity.
  - cbn [map fst] in N. inversion N as [|? ? Hn N']; subst.
    destruct ms as [|m r]; [eexists; reflexivity|].
    cbn [map] in H. inversion H as [|? ? ? H' E|? ? ? H']; subst.
    + (* the member is the head of the allowed list *)
      cbn [verify_fold find_allowed]. rewrite list_eqb_refl, kind_eqb_refl.
      apply IH; assumption.
    + (* the head of the allowed list is skipped: the member's name differs from it *)
      assert (Hne : m_name m <> n).
      { intros E. apply Hn. apply sublist_in in H'.
        apply (in_map fst) in H'. cbn [member_pair fst] in H'. rewrite <- E. exact H'. }
      destruct (IH (m :: r) N' H') as [rest Hr]. exists rest.
      cbn [verify_fold find_allowed] in Hr |- *. rewrite list_eqb_false by exact Hne. exact Hr.
Qed.

Lemma verify_fold_total ms : forall allowed, graceful (verify_fold allowed ms).
Proof.
  induction ms as [|m r IH]; intros allowed; cbn [verify_fold]; [apply graceful_ok|].
  destruct (find_allowed (m_name m) allowed) as [[k rest']|]; [|apply graceful_err].
  destruct (kind_eqb (m_kind m) k); [apply IH|apply graceful_err].
Qed.

(** [NoDup_nodup] proves [NoDup (nodup dec l)]; it is accepted here because [nodup dec l]
    computes to [l] itself when, as for the five names, no entry of [l] repeats. *)
Lemma domain_names_nodup : NoDup (map fst domain_members).
Proof. exact (NoDup_nodup (list_eq_dec N.eq_dec) (map fst domain_members)). Qed.

(** C20: accepted exactly when a non-empty sub-sequence of the five standard fields *)
Theorem verify_domain_iff ms : verify_domain ms = Ok tt <-> domain_ok ms.
Proof.
  unfold domain_ok. destruct ms as [|m r].
  { split; [discriminate|]. intros [H _]. destruct H. reflexivity. }
  unfold verify_domain. rewrite bind_ok_iff. split.
  - intros (rest & F & _). split; [discriminate|exact (verify_fold_sound _ _ _ F)].
  - intros [_ H]. destruct (verify_fold_complete _ _ domain_names_nodup H) as [rest F]. eauto.
Qed.

Theorem verify_domain_total ms : graceful (verify_domain ms).
Proof.
  destruct ms as [|m r]; [apply graceful_err|].
  exact (graceful_omap (fun _ => tt) _ (verify_fold_total _ _)).
Qed.

Theorem verify_domain_reject ms : ~ domain_ok ms -> verify_domain ms = Err.
Proof.
  intros H. apply graceful_not_ok_err; [apply verify_domain_total|].
  intros [] E. apply H, verify_domain_iff, E.
Qed.

(** * Consequences: the 31 well-formed domain types, the order of the fields *)

Lemma member_pair_of_pair l : map member_pair (map member_of_pair l) = l.
Proof. induction l as [|[n k] l IH]; [reflexivity|]. cbn [map]. rewrite IH. reflexivity. Qed.

(** the accepted member lists are the entries of one list; Props/C20.v counts 31 of them *)
Theorem verify_domain_31 ms :
  verify_domain ms = Ok tt <-> In (map member_pair ms) (nonempty_sublists domain_members).
Proof.
  rewrite verify_domain_iff, nonempty_sublists_spec. unfold domain_ok.
  destruct ms as [|m r]; cbn [map].
  - split; intros [H _]; destruct H; reflexivity.
  - split; intros [_ H]; (split; [discriminate|exact H]).
Qed.

(** every entry of the enumeration is accepted: the same fact as [verify_domain_31], by evaluation *)
Lemma verify_domain_31_accepted_b :
  forallb (fun s => is_ok (verify_domain (map member_of_pair s))) (nonempty_sublists domain_members)
  = true.
Proof. vm_compute. reflexivity. Qed.

Lemma domain_ok_names ms : domain_ok ms -> sublist (map m_name ms) (map fst domain_members).
Proof. intros [_ H]. apply (sublist_map fst) in H. rewrite map_map in H. exact H. Qed.

Lemma domain_ok_member ms m : domain_ok ms -> In m ms -> In (member_pair m) domain_members.
Proof. intros [_ D] Hm. eapply sublist_incl; [exact D|]. apply in_map. exact Hm. Qed.

Lemma domain_ok_pair pre mid post a b :
  domain_ok (pre ++ a :: mid ++ b :: post) ->
  sublist [m_name a; m_name b] (map fst domain_members).
Proof.
  intros D. eapply sublist_trans; [|exact (domain_ok_names _ D)].
  rewrite map_app. cbn [map]. rewrite map_app.
  apply sublist_app_l, sublist_take, sublist_app_l, sublist_take, sublist_nil.
Qed.

Theorem order_swapped pre mid post a b :
  verify_domain (pre ++ a :: mid ++ b :: post) = Ok tt ->
  verify_domain (pre ++ b :: mid ++ a :: post) = Err.
Proof.
  intros H1. apply verify_domain_reject. intros H2. apply verify_domain_iff in H1.
  exact (sublist_pair_order _ _ _ domain_names_nodup
           (domain_ok_pair _ _ _ _ _ H1) (domain_ok_pair _ _ _ _ _ H2)).
Qed.

(** * [verify_domain_type] *)

Lemma types_get_none name types : ~ In name (map fst types) -> types_get name types = None.
Proof.
  induction types as [|[n ms] r IH]; intros H; [reflexivity|].
  cbn [types_get]. rewrite list_eqb_false.
  - apply IH. intros Hc. apply H. right. exact Hc.
  - intros E. apply H. left. symmetry. exact E.
Qed.

Lemma types_get_some name types ms : types_get name types = Some ms -> In (name, ms) types.
Proof.
  induction types as [|[n ms'] r IH]; intros H; [discriminate|].
  cbn [types_get] in H. destruct (list_eqb name n) eqn:E.
  - apply list_eqb_spec in E. inversion H; subst. left. reflexivity.
  - right. apply IH. exact H.
Qed.

Theorem verify_domain_type_iff types :
  verify_domain_type types = Ok tt <->
  exists ms, types_get (s2l "EIP712Domain") types = Some ms /\ domain_ok ms.
Proof.
  unfold verify_domain_type. destruct (types_get (s2l "EIP712Domain") types) as [ms|].
  - rewrite verify_domain_iff. split; [intros H; exists ms; auto|].
    intros (ms' & E & H). inversion E; subst. exact H.
  - split; [discriminate|]. intros (ms & E & _). discriminate.
Qed.

Theorem verify_domain_type_total types : graceful (verify_domain_type types).
Proof.
  unfold verify_domain_type. destruct (types_get _ types); [apply verify_domain_total|apply graceful_err].
Qed.

(** Proofs for the type half of C08: [encode_type] (work-list + sorted map) computes the
    EIP-712 [encodeType] string.  Route: DESIGN.md Appendix A.3 (work-list invariant). *)
From Coq Require Import String.
From Coq Require Import List NArith Bool Lia Sorted Permutation.
From HDW Require Import Lib.Outcome Lib.Bytes Model.Eip712Kind Model.Domain Model.Eip712Types.
From HDW Require Import Spec.Eip712TypeSpec Proofs.TextOrder.
Import ListNotations.
Open Scope N_scope.

(** * References *)

Lemma struct_reference_refers k U : struct_reference k = Some U <-> refers k U.
Proof.
  induction k as [n|n|n| | | |name|inner IH size]; cbn [struct_reference];
    try (split; [discriminate | inversion 1]).
  - split; [intros [= ->]; constructor | inversion 1; reflexivity].
  - rewrite IH. split; [constructor; assumption | inversion 1; assumption].
Qed.

Lemma in_struct_references ms U :
  In U (struct_references ms) <-> exists m, In m ms /\ refers (m_kind m) U.
Proof.
  induction ms as [|m r IH]; cbn [struct_references].
  - split; [intros [] | intros (m & [] & _)].
  - transitivity (struct_reference (m_kind m) = Some U \/ In U (struct_references r)).
    { destruct (struct_reference (m_kind m)) as [name|]; cbn [In].
      - split; [intros [->|H] | intros [[= ->]|H]]; auto.
      - split; [auto | intros [[=]|H]; exact H]. }
    rewrite IH, struct_reference_refers. split.
    + intros [Hr|(m' & Hin & Hr)]; [exists m | exists m']; cbn [In]; auto.
    + intros (m' & [<-|Hin] & Hr); eauto.
Qed.

Lemma reach1_refs tys T U : reach1 tys T U <-> In U (struct_references (def tys T)).
Proof. unfold reach1. symmetry. apply in_struct_references. Qed.

Lemma def_some tys T ms : types_get T tys = Some ms -> def tys T = ms.
Proof. unfold def. intros ->. reflexivity. Qed.

Lemma reach1_defined tys T U : reach1 tys T U -> types_get T tys <> None.
Proof.
  intros (m & Hin & _) Hn. unfold def in Hin. rewrite Hn in Hin. destruct Hin.
Qed.

(** * The sorted map *)

Lemma bt_contains_spec k m : bt_contains k m = true <-> In k (map fst m).
Proof.
  unfold bt_contains. rewrite existsb_exists, in_map_iff. split.
  - intros (e & Hin & He). apply list_eqb_spec in He. exists e. auto.
  - intros (e & He & Hin). exists e. split; [assumption|]. apply list_eqb_spec. auto.
Qed.

Lemma bt_contains_false k m : bt_contains k m = false <-> ~ In k (map fst m).
Proof.
  rewrite <- bt_contains_spec. destruct (bt_contains k m); split; congruence.
Qed.

Lemma bt_contains_insert k name v m :
  bt_contains k (bt_insert name v m) = list_eqb k name || bt_contains k m.
Proof.
  apply eq_true_iff_eq.
  rewrite orb_true_iff, !bt_contains_spec, bt_insert_eq, obj_insert_keys, list_eqb_spec. reflexivity.
Qed.

(** * The work-list invariant (Appendix A.3) *)

Definition inv (tys : typesmap) (P : text) (stack : list text) (sub : list (text * list member)) : Prop :=
  (forall T ms, In (T, ms) sub -> types_get T tys = Some ms) /\
  (forall T, In T (map fst sub) -> reachp tys P T /\ T <> P) /\
  (forall T, In T stack -> reachp tys P T) /\
  (forall T, T = P \/ In T (map fst sub) ->
     forall U, reach1 tys T U -> In U (map fst sub) \/ In U stack \/ U = P) /\
  StronglySorted text_lt (map fst sub).

Lemma inv_init tys P ms :
  types_get P tys = Some ms -> inv tys P (rev (struct_references ms)) [].
Proof.
  intros Hg. pose proof (def_some _ _ _ Hg) as Hd. repeat apply conj.
  - intros T ms' [].
  - intros T [].
  - intros T HT. apply in_rev in HT. apply reachp_step. apply reach1_refs.
    rewrite Hd. assumption.
  - intros T [->|[]] U HU. right; left. apply in_rev. rewrite rev_involutive.
    apply reach1_refs in HU. rewrite Hd in HU. assumption.
  - constructor.
Qed.

Lemma inv_skip tys P name rest sub :
  inv tys P (name :: rest) sub -> name = P \/ In name (map fst sub) -> inv tys P rest sub.
Proof.
  intros (I0 & I1 & I2 & I3 & I4) Hn. repeat apply conj; auto.
  - intros T HT. apply I2. right; assumption.
  - intros T HT U HU. destruct (I3 T HT U HU) as [H|[[<-|H]|H]]; auto.
    destruct Hn as [->|Hn]; auto.
Qed.

Lemma inv_insert tys P name rest sub ms :
  inv tys P (name :: rest) sub -> name <> P -> types_get name tys = Some ms ->
  inv tys P (rev_append (struct_references ms) rest) (bt_insert name ms sub).
Proof.
  intros (I0 & I1 & I2 & I3 & I4) HnP Hg.
  pose proof (def_some _ _ _ Hg) as Hd.
  assert (Hname : reachp tys P name) by (apply I2; left; reflexivity).
  rewrite rev_append_rev, bt_insert_eq. repeat apply conj.
  - intros T ms' Hin. apply obj_insert_in in Hin as [[= -> ->]|Hin]; auto.
  - intros T H. apply obj_insert_keys in H as [->|H]; [split; assumption | apply I1; assumption].
  - intros T HT. apply in_app_or in HT as [HT|HT].
    + apply in_rev in HT. apply reachp_trans with name; [assumption|].
      apply reach1_refs. rewrite Hd. assumption.
    + apply I2. right; assumption.
  - intros T HT U HU. rewrite obj_insert_keys, in_app_iff, <- in_rev.
    assert (Hold : (T = P \/ In T (map fst sub)) \/ T = name)
      by (rewrite obj_insert_keys in HT; tauto).
    destruct Hold as [Hold| ->].
    + destruct (I3 T Hold U HU) as [H|[[<-|H]|H]]; auto.
    + apply reach1_refs in HU. rewrite Hd in HU. auto.
  - apply obj_insert_sorted. assumption.
Qed.

Lemma loop_step tys P fuel name rest sub :
  encode_type_loop (S fuel) tys P (name :: rest) sub =
  if list_eqb name P || bt_contains name sub then encode_type_loop fuel tys P rest sub
  else match types_get name tys with
       | None => Err
       | Some ms => encode_type_loop fuel tys P (rev_append (struct_references ms) rest)
                      (bt_insert name ms sub)
       end.
Proof. reflexivity. Qed.

Lemma skip_cond (P : text) name sub :
  list_eqb name P || bt_contains name sub = true <-> name = P \/ In name (map fst sub).
Proof. rewrite orb_true_iff, list_eqb_spec, bt_contains_spec. reflexivity. Qed.

Lemma loop_inv tys P : forall fuel stack sub,
  inv tys P stack sub ->
  match encode_type_loop fuel tys P stack sub with
  | Ok sub' => inv tys P [] sub'
  | Err => exists T, reachp tys P T /\ types_get T tys = None
  | Panic => False
  | OutOfFuel => True
  end.
Proof.
  induction fuel as [|fuel IH]; intros stack sub Hinv; [exact I|].
  destruct stack as [|name rest]; [exact Hinv|].
  rewrite loop_step. destruct (list_eqb name P || bt_contains name sub) eqn:Hc.
  - apply IH. apply skip_cond in Hc. eapply inv_skip; eassumption.
  - rewrite <- not_true_iff_false, skip_cond in Hc.
    destruct (types_get name tys) as [ms|] eqn:Hg.
    + apply IH, inv_insert; [exact Hinv|tauto|exact Hg].
    + exists name. split; [|assumption].
      destruct Hinv as (_ & _ & I2 & _). apply I2. left; reflexivity.
Qed.

(** * Termination *)

(** references of the entries whose key has not been inserted yet *)
Definition pending (tys : typesmap) (sub : list (text * list member)) : nat :=
  list_sum (map (fun e => if bt_contains (fst e) sub then O
                          else length (struct_references (snd e))) tys).

Lemma pending_cons n ms tys sub :
  pending ((n, ms) :: tys) sub =
  ((if bt_contains n sub then O else length (struct_references ms)) + pending tys sub)%nat.
Proof. reflexivity. Qed.

(** Inserting a key takes the references of its entry off the pending ones (of its first entry:
    the later ones with the same key, if any, come off as well). *)
Lemma pending_insert tys name v sub :
  bt_contains name sub = false ->
  (pending tys (bt_insert name v sub)
   + match types_get name tys with Some ms => length (struct_references ms) | None => O end
   <= pending tys sub)%nat.
Proof.
  intros Hc. induction tys as [|[n ms] r IH]; [reflexivity|].
  rewrite !pending_cons, bt_contains_insert. cbn [types_get].
  destruct (list_eqb name n) eqn:He.
  - apply list_eqb_spec in He. subst n. rewrite list_eqb_refl, Hc. cbn [orb].
    destruct (types_get name r); lia.
  - destruct (list_eqb n name); destruct (bt_contains n sub); cbn [orb]; lia.
Qed.

Lemma loop_fuel tys P : forall fuel stack sub,
  (length stack + pending tys sub < fuel)%nat ->
  encode_type_loop fuel tys P stack sub <> OutOfFuel.
Proof.
  induction fuel as [|fuel IH]; intros stack sub Hlt; [lia|].
  destruct stack as [|name rest]; [discriminate|].
  rewrite loop_step. cbn [length] in Hlt.
  destruct (list_eqb name P || bt_contains name sub) eqn:Hc.
  - apply IH. lia.
  - apply orb_false_iff in Hc as [_ Hc].
    destruct (types_get name tys) as [ms|] eqn:Hg; [|discriminate].
    apply IH. rewrite rev_append_rev, app_length, rev_length.
    pose proof (pending_insert tys name ms sub Hc) as Hp. rewrite Hg in Hp. lia.
Qed.

Lemma encode_type_loop_fuel_enough tys P ms :
  encode_type_loop (encode_type_fuel tys ms) tys P (rev (struct_references ms)) [] <> OutOfFuel.
Proof.
  apply loop_fuel. rewrite rev_length. change (pending tys []) with (refs_total tys).
  unfold encode_type_fuel. lia.
Qed.

(** * At the exit: [encode_type] meets the specification *)

Lemma inv_exit_closed tys P sub :
  inv tys P [] sub -> forall T, reachp tys P T -> T = P \/ In T (map fst sub).
Proof.
  intros (_ & _ & _ & I3 & _) T HT.
  induction HT as [T H1|T U _ IH H1].
  - destruct (I3 P (or_introl eq_refl) T H1) as [H|[[]|H]]; auto.
  - destruct (I3 T IH U H1) as [H|[[]|H]]; auto.
Qed.

Lemma inv_exit_deps tys P sub : inv tys P [] sub -> deps_spec tys P (map fst sub).
Proof.
  intros Hinv. pose proof (inv_exit_closed _ _ _ Hinv) as Hcl.
  destruct Hinv as (_ & I1 & _ & _ & I4). split; [assumption|].
  intros T. split; [apply I1|]. intros [Hr HnP].
  destruct (Hcl T Hr) as [E|H]; [contradiction | assumption].
Qed.

Lemma inv_exit_defined tys P sub ms :
  types_get P tys = Some ms -> inv tys P [] sub -> all_defined tys P.
Proof.
  intros Hg Hinv T [->|HT]; [congruence|].
  destruct (inv_exit_closed _ _ _ Hinv T HT) as [->|Hin]; [congruence|].
  destruct Hinv as (I0 & _). apply in_map_iff in Hin as ([T' ms'] & <- & Hin).
  cbn [fst]. rewrite (I0 _ _ Hin). discriminate.
Qed.

Lemma inv_exit_display tys P sub :
  inv tys P [] sub ->
  map display_entry sub = map (fun T => display_typedef T (def tys T)) (map fst sub).
Proof.
  intros (I0 & _). rewrite map_map. apply map_ext_in. intros [T ms] Hin.
  unfold display_entry. cbn [fst snd]. rewrite (def_some _ _ _ (I0 _ _ Hin)). reflexivity.
Qed.

(** The theorems of [Props/C08.v] about [encode_type] are read off this case analysis. *)
Lemma encode_type_cases tys P :
  (all_defined tys P /\
   exists l, deps_spec tys P l /\ encode_type tys P = Ok (encode_type_spec tys P l)) \/
  ((exists T, (T = P \/ reachp tys P T) /\ types_get T tys = None) /\
   encode_type tys P = Err).
Proof.
  unfold encode_type. destruct (types_get P tys) as [ms|] eqn:Hg.
  2:{ right. split; [|reflexivity]. exists P. auto. }
  pose proof (loop_inv tys P (encode_type_fuel tys ms) _ _ (inv_init tys P ms Hg)) as Hexit.
  pose proof (encode_type_loop_fuel_enough tys P ms) as Hfuel.
  destruct (encode_type_loop _ tys P _ []) as [sub| | |]; [| |contradiction..].
  - left. split.
    + eapply inv_exit_defined; eassumption.
    + exists (map fst sub). split; [apply inv_exit_deps; assumption|].
      cbn [bind]. unfold encode_type_spec.
      rewrite (def_some _ _ _ Hg), (inv_exit_display _ _ _ Hexit). reflexivity.
  - right. split; [|reflexivity]. destruct Hexit as (T & HT & Hn). exists T. auto.
Qed.

Lemma encode_type_total tys P : graceful (encode_type tys P).
Proof.
  destruct (encode_type_cases tys P) as [[_ (l & _ & H)]|[_ H]]; rewrite H;
    [apply graceful_ok | apply graceful_err].
Qed.

Lemma type_hash_total tys P : graceful (type_hash tys P).
Proof.
  exact (graceful_omap _ _ (encode_type_total tys P)).
Qed.

(** * Properties of the specification *)

Lemma deps_unique tys P l1 l2 : deps_spec tys P l1 -> deps_spec tys P l2 -> l1 = l2.
Proof.
  intros [S1 E1] [S2 E2]. apply sorted_unique; [assumption|assumption|].
  intros T. rewrite E1, E2. reflexivity.
Qed.

Lemma reachp_perm tys1 tys2 P :
  (forall T, Permutation (def tys1 T) (def tys2 T)) ->
  forall T, reachp tys1 P T <-> reachp tys2 P T.
Proof.
  assert (D : forall ta tb, (forall T, Permutation (def ta T) (def tb T)) ->
                forall T, reachp ta P T -> reachp tb P T).
  { intros ta tb Hp.
    assert (H1 : forall T U, reach1 ta T U -> reach1 tb T U).
    { intros T U (m & Hin & Hr). exists m. split; [|exact Hr].
      eapply Permutation_in; [apply Hp|exact Hin]. }
    induction 1 as [T H|T U _ IH H]; [apply reachp_step|apply reachp_trans with T]; auto. }
  intros Hp T. split; apply D; intros U; [|symmetry]; apply Hp.
Qed.

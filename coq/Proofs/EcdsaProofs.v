(** Proofs for C05: the ECDSA algebra over an abstract group.

    Technique (DESIGN.md Appendix A.4): congruence modulo n as a setoid ([eqm] with
    [Proper] instances for +, *, -), [mulG_eqm : a == b -> a·G = b·G], and the key
    congruence [k * s == z + r * d] satisfied by the raw (un-normalised) s.  The low-s
    normalisation turns s into e s and R into e R with e = -1 or 1; [verify_point] and
    [recover_point] are stated for any e with e e == 1, so the two cases are one. *)
From Coq Require Import ZArith Bool Lia Morphisms Setoid.
(* [Lib.Bytes] only for its [Zify] hook, with which [lia] handles the [n / 2] of the low-s test *)
From HDW Require Import Lib.Outcome Lib.Bytes Model.Ecdsa Spec.EcdsaSpec.
Local Open Scope Z_scope.

Section Algebra.
  Variables (E : Type) (G : E) (mul : Z -> E -> E) (add : E -> E -> E) (neg : E -> E)
            (xcoord : E -> Z) (yodd : E -> bool)
            (lift : Z -> bool -> option E)
            (n : Z) (inv : Z -> Z)
            (nonce : Z -> Z -> Z).

  Hypothesis n_gt1 : 1 < n.
  Hypothesis inv_ok : forall a, a mod n <> 0 -> (a * inv a) mod n = 1.
  Hypothesis mul_add : forall a b P, add (mul a P) (mul b P) = mul (a + b) P.
  Hypothesis mul_mul : forall a b P, mul a (mul b P) = mul (a * b) P.
  Hypothesis mul_mod : forall a, mul (a mod n) G = mul a G.
  Hypothesis neg_mul : forall P, neg P = mul (-1) P.
  Hypothesis x_neg : forall k, xcoord (neg (mul k G)) = xcoord (mul k G).
  Hypothesis lift_ok : forall k, k mod n <> 0 ->
    lift (xcoord (mul k G)) (yodd (mul k G)) = Some (mul k G).
  Hypothesis lift_neg : forall k, k mod n <> 0 ->
    lift (xcoord (mul k G)) (negb (yodd (mul k G))) = Some (neg (mul k G)).
  Hypothesis nonce_range : forall d h, 0 < nonce d h < n.

  Local Notation sign := (Ecdsa.sign E G mul xcoord yodd n inv nonce).
  Local Notation is_high := (Ecdsa.is_high n).
  Local Notation verify := (EcdsaSpec.verify E G mul add xcoord n inv).
  Local Notation recover := (EcdsaSpec.recover E G mul add neg lift n inv).
  Local Notation rfc6979_ecdsa := (EcdsaSpec.rfc6979_ecdsa E G mul xcoord yodd n inv nonce).
  Local Notation low_s_normalise := (EcdsaSpec.low_s_normalise n).

  (** [lia] reverts the whole context, which would make every lemma depend on every section
      variable and hypothesis: clear what the goal does not mention first. *)
  Ltac zlia :=
    try clear lift_ok; try clear lift_neg; try clear x_neg; try clear neg_mul;
    try clear mul_mod; try clear mul_mul; try clear mul_add; try clear inv_ok;
    try clear nonce_range;
    try clear lift; try clear add; try clear neg; try clear nonce; try clear inv;
    try clear yodd; try clear xcoord; try clear mul; try clear G; try clear E; lia.

  (** * Congruence modulo n *)

  Definition eqm (a b : Z) : Prop := a mod n = b mod n.
  Local Infix "==" := eqm (at level 70, no associativity).

  Global Instance eqm_equiv : Equivalence eqm.
  Proof using Type.
    split.
    - intros a. reflexivity.
    - intros a b H. unfold eqm in *. symmetry. exact H.
    - intros a b c H1 H2. unfold eqm in *. congruence.
  Qed.

  Global Instance add_eqm : Proper (eqm ==> eqm ==> eqm) Z.add.
  Proof using n_gt1.
    intros a a' Ha b b' Hb. unfold eqm in *.
    rewrite (Z.add_mod a b), (Z.add_mod a' b') by zlia. rewrite Ha, Hb. reflexivity.
  Qed.

  Global Instance mul_eqm : Proper (eqm ==> eqm ==> eqm) Z.mul.
  Proof using n_gt1.
    intros a a' Ha b b' Hb. unfold eqm in *.
    rewrite (Z.mul_mod a b), (Z.mul_mod a' b') by zlia. rewrite Ha, Hb. reflexivity.
  Qed.

  Global Instance opp_eqm : Proper (eqm ==> eqm) Z.opp.
  Proof using n_gt1.
    intros a a' Ha.
    replace (- a) with (-1 * a) by ring. replace (- a') with (-1 * a') by ring.
    rewrite Ha. reflexivity.
  Qed.

  Global Instance sub_eqm : Proper (eqm ==> eqm ==> eqm) Z.sub.
  Proof using n_gt1.
    intros a a' Ha b b' Hb. unfold Z.sub. rewrite Ha, Hb. reflexivity.
  Qed.

  Lemma mod_eqm a : a mod n == a.
  Proof using n_gt1. unfold eqm. apply Z.mod_mod. zlia. Qed.

  Lemma inv_eqm a : a mod n <> 0 -> a * inv a == 1.
  Proof using n_gt1 inv_ok.
    intros Ha. unfold eqm. rewrite (inv_ok a Ha). symmetry. apply Z.mod_small. zlia.
  Qed.

  Lemma n_sub_eqm s : n - s == - s.
  Proof using n_gt1.
    unfold eqm. replace (n - s) with (- s + 1 * n) by ring. apply Z.mod_add. zlia.
  Qed.

  Lemma mulG_eqm a b : a == b -> mul a G = mul b G.
  Proof using mul_mod.
    intros H. rewrite <- (mul_mod a), <- (mul_mod b). unfold eqm in H. rewrite H. reflexivity.
  Qed.

  Lemma small_mod_nz a : 0 < a < n -> a mod n <> 0.
  Proof using Type. intros H. rewrite Z.mod_small by zlia. zlia. Qed.

  Lemma neg_mulG k : neg (mul k G) = mul (- k) G.
  Proof using neg_mul mul_mul.
    rewrite neg_mul, mul_mul. replace (- k) with (-1 * k) by ring. reflexivity.
  Qed.

  (** * The algebra of one signature: k, z, r, d arbitrary, s with k s == z + r d *)

  Lemma core k z r d :
    k mod n <> 0 -> k * ((inv k * (z + r * d)) mod n) == z + r * d.
  Proof using n_gt1 inv_ok.
    intros Hk. rewrite (mod_eqm (inv k * (z + r * d))).
    replace (k * (inv k * (z + r * d))) with ((k * inv k) * (z + r * d)) by ring.
    rewrite (inv_eqm k Hk). rewrite Z.mul_1_l. reflexivity.
  Qed.

  (** multiplication by a square root of 1 is undone by itself *)
  Lemma unit_back e s s' : e * e == 1 -> s' == e * s -> s == e * s'.
  Proof using n_gt1.
    intros He Hf. rewrite Hf. replace (e * (e * s)) with (e * e * s) by ring.
    rewrite He, Z.mul_1_l. reflexivity.
  Qed.

  (** The signature carries s' == e s with e e == 1 (e = -1 when the low-s normalisation
      negated s, else 1).  Verification then meets the point e k G:
      u1 G + u2 Q = e k G ... *)
  Lemma verify_point e k z r s s' d :
    e * e == 1 -> s' mod n <> 0 -> s' == e * s -> k * s == z + r * d ->
    add (mul (z * inv s') G) (mul (r * inv s') (mul d G)) = mul (e * k) G.
  Proof using n_gt1 inv_ok mul_add mul_mul mul_mod.
    intros He Hs Hf Hc. rewrite mul_mul, mul_add. apply mulG_eqm.
    replace (z * inv s' + r * inv s' * d) with (inv s' * (z + r * d)) by ring.
    rewrite <- Hc, (unit_back e s s' He Hf).
    replace (inv s' * (k * (e * s'))) with (e * k * (s' * inv s')) by ring.
    rewrite (inv_eqm s' Hs), Z.mul_1_r. reflexivity.
  Qed.

  (** ... and recovery from R' = e k G gives the key:  r^-1 (s' R' - z G) = d G *)
  Lemma recover_point e k z r s s' d :
    e * e == 1 -> r mod n <> 0 -> s' == e * s -> k * s == z + r * d ->
    mul (inv r) (add (mul s' (mul (e * k) G)) (neg (mul z G))) = mul d G.
  Proof using n_gt1 inv_ok mul_add mul_mul mul_mod neg_mul.
    intros He Hr Hf Hc. rewrite neg_mulG, mul_mul, mul_add, mul_mul. apply mulG_eqm.
    rewrite Hf. replace (e * s * (e * k)) with (e * e * (k * s)) by ring.
    rewrite He, Z.mul_1_l, Hc.
    replace (inv r * (z + r * d + - z)) with ((r * inv r) * d) by ring.
    rewrite (inv_eqm r Hr), Z.mul_1_l. reflexivity.
  Qed.

  (** e as [sign] computes it: -1 when the raw s is high *)
  Definition flip (b : bool) : Z := if b then -1 else 1.

  Lemma flip_sq b : flip b * flip b == 1.
  Proof using Type. destruct b; reflexivity. Qed.

  Lemma normalise_flip s : (if is_high s then n - s else s) == flip (is_high s) * s.
  Proof using n_gt1.
    destruct (is_high s); cbn [flip]; [|rewrite Z.mul_1_l; reflexivity].
    rewrite n_sub_eqm. replace (-1 * s) with (- s) by ring. reflexivity.
  Qed.

  Lemma mul_flip b k : mul (flip b * k) G = if b then neg (mul k G) else mul k G.
  Proof using neg_mul mul_mul.
    destruct b; cbn [flip]; [|rewrite Z.mul_1_l; reflexivity].
    rewrite neg_mulG. replace (-1 * k) with (- k) by ring. reflexivity.
  Qed.

  (** * Inversion of [sign] *)

  (** the raw (un-normalised) components computed by [sign] *)
  Definition raw_R (d h : Z) : E := mul (nonce d h) G.
  Definition raw_r (d h : Z) : Z := xcoord (raw_R d h) mod n.
  Definition raw_s (d h : Z) : Z := (inv (nonce d h) * (h mod n + raw_r d h * d)) mod n.

  Lemma sign_inv d h r s v :
    sign d h = Ok (r, s, v) ->
    r = raw_r d h /\ raw_r d h <> 0 /\ raw_s d h <> 0 /\
    s = (if is_high (raw_s d h) then n - raw_s d h else raw_s d h) /\
    v = xorb (yodd (raw_R d h)) (is_high (raw_s d h)).
  Proof using Type.
    unfold Ecdsa.sign. fold (raw_R d h). fold (raw_r d h). fold (raw_s d h).
    destruct (nonce d h =? 0); [discriminate|].
    destruct ((raw_r d h =? 0) || (raw_s d h =? 0)) eqn:Hz; [discriminate|].
    apply orb_false_elim in Hz. destruct Hz as [Hr0 Hs0].
    apply Z.eqb_neq in Hr0. apply Z.eqb_neq in Hs0.
    destruct (is_high (raw_s d h)); intros [= <- <- <-];
      rewrite ?xorb_true_r, ?xorb_false_r; auto.
  Qed.

  (** signing refuses with an ordinary error only (k = 0, r = 0 or s = 0) *)
  Lemma sign_total d h : graceful (sign d h).
  Proof using Type.
    unfold Ecdsa.sign. destruct (nonce d h =? 0); [apply graceful_err|].
    destruct (_ || _); [apply graceful_err|].
    destruct (is_high _); apply graceful_ok.
  Qed.

  Lemma sign_nonce_zero d h : nonce d h = 0 -> sign d h = Err.
  Proof using Type. intros H. unfold Ecdsa.sign. rewrite H. reflexivity. Qed.

  Lemma raw_r_range d h : 0 <= raw_r d h < n.
  Proof using n_gt1. unfold raw_r. apply Z.mod_pos_bound. zlia. Qed.

  Lemma raw_s_range d h : 0 <= raw_s d h < n.
  Proof using n_gt1. unfold raw_s. apply Z.mod_pos_bound. zlia. Qed.

  Lemma nonce_nz d h : nonce d h mod n <> 0.
  Proof using nonce_range. apply small_mod_nz. apply nonce_range. Qed.

  Lemma raw_core d h : nonce d h * raw_s d h == h mod n + raw_r d h * d.
  Proof using n_gt1 inv_ok nonce_range. unfold raw_s. apply core. apply nonce_nz. Qed.

  (** * C05: ranges, low s *)

  Lemma sign_ranges d h r s v :
    sign d h = Ok (r, s, v) -> 0 < r < n /\ 0 < s <= n / 2.
  Proof using n_gt1.
    intros H. apply sign_inv in H. destruct H as (-> & Hr0 & Hs0 & -> & _).
    pose proof (raw_r_range d h) as Rr. pose proof (raw_s_range d h) as Rs.
    split; [zlia|]. unfold Ecdsa.is_high.
    destruct (Z.ltb_spec (n / 2) (raw_s d h)); zlia.
  Qed.

  Lemma C05_low_s d h r s v :
    sign d h = Ok (r, s, v) -> 2 * s <= n /\ is_high s = false.
  Proof using n_gt1.
    intros H. apply sign_ranges in H. destruct H as [_ Hs].
    split; [zlia|]. unfold Ecdsa.is_high. apply Z.ltb_ge. zlia.
  Qed.

  (** the parity bit is that of y(R), negated exactly when the raw s was high; and the
      returned s is the raw s, negated modulo n in the same case (k256: [is_y_odd ^ is_high],
      [normalize_s]) *)
  Lemma C05_parity_flip d h r s v :
    sign d h = Ok (r, s, v) ->
    let R := mul (nonce d h) G in
    let s0 := (inv (nonce d h) * (h mod n + (xcoord R mod n) * d)) mod n in
    (n / 2 < s0 -> s = n - s0 /\ v = negb (yodd R)) /\
    (s0 <= n / 2 -> s = s0 /\ v = yodd R).
  Proof using Type.
    intros H. apply sign_inv in H. destruct H as (_ & _ & _ & -> & ->).
    cbv zeta. fold (raw_R d h). fold (raw_r d h). fold (raw_s d h). unfold Ecdsa.is_high.
    destruct (Z.ltb_spec (n / 2) (raw_s d h)); rewrite ?xorb_true_r, ?xorb_false_r;
      split; intros; [tauto|zlia|zlia|tauto].
  Qed.

  (** * C05: validity *)

  Lemma C05_valid d h r s v :
    sign d h = Ok (r, s, v) -> 0 < d < n ->
    0 < r < n /\ 0 < s <= n / 2 /\ verify (mul d G) h r s = true.
  Proof using n_gt1 inv_ok mul_add mul_mul mul_mod neg_mul x_neg nonce_range.
    intros H _. pose proof (sign_ranges _ _ _ _ _ H) as [Rr Rs].
    split; [exact Rr|]. split; [exact Rs|].
    assert (Hsnz : s mod n <> 0) by (apply small_mod_nz; zlia).
    unfold EcdsaSpec.verify.
    repeat (apply andb_true_intro; split); try (apply Z.ltb_lt; zlia).
    apply sign_inv in H. destruct H as (-> & _ & _ & Hs & _).
    rewrite (verify_point (flip (is_high (raw_s d h))) (nonce d h) (h mod n) _ (raw_s d h) s d
               (flip_sq _) Hsnz).
    - (* the point is R or -R: same abscissa *)
      rewrite mul_flip. apply Z.eqb_eq.
      destruct (is_high (raw_s d h)); [rewrite x_neg|]; reflexivity.
    - rewrite Hs. apply normalise_flip.
    - apply raw_core.
  Qed.

  (** * C05: recoverability *)

  Lemma C05_recover d h r s v :
    sign d h = Ok (r, s, v) -> 0 < d < n ->
    0 <= xcoord (mul (nonce d h) G) < n ->
    recover h r s v = Some (mul d G).
  Proof using n_gt1 inv_ok mul_add mul_mul mul_mod neg_mul lift_ok lift_neg nonce_range.
    intros H _ Hx. apply sign_inv in H. destruct H as (-> & Hr0 & _ & Hs & ->).
    assert (Hrx : raw_r d h = xcoord (mul (nonce d h) G)) by (apply Z.mod_small; exact Hx).
    assert (Hrnz : raw_r d h mod n <> 0).
    { pose proof (raw_r_range d h). apply small_mod_nz. zlia. }
    (* decompression gives R or -R according to the parity bit, that is e k G *)
    assert (HR : lift (raw_r d h) (xorb (yodd (raw_R d h)) (is_high (raw_s d h)))
                 = Some (mul (flip (is_high (raw_s d h)) * nonce d h) G)).
    { rewrite mul_flip, Hrx. unfold raw_R.
      destruct (is_high (raw_s d h)); rewrite ?xorb_true_r, ?xorb_false_r;
        [apply lift_neg|apply lift_ok]; apply nonce_nz. }
    unfold EcdsaSpec.recover. rewrite HR. f_equal.
    apply (recover_point _ _ _ _ (raw_s d h)); [apply flip_sq|exact Hrnz| |apply raw_core].
    rewrite Hs. apply normalise_flip.
  Qed.

  (** * C05: determinism, RFC 6979 *)

  Lemma C05_deterministic d d' h h' :
    d = d' -> h = h' -> sign d h = sign d' h'.
  Proof using Type. intros -> ->. reflexivity. Qed.

  Lemma C05_rfc6979 d h :
    0 <= h < n -> sign d h = low_s_normalise (rfc6979_ecdsa d h).
  Proof using Type.
    intros Hh. unfold Ecdsa.sign, EcdsaSpec.low_s_normalise, EcdsaSpec.rfc6979_ecdsa,
      EcdsaSpec.bits2octets, Ecdsa.is_high.
    rewrite (Z.mod_small h n Hh).
    destruct (nonce d h =? 0); [reflexivity|].
    set (r := xcoord (mul (nonce d h) G) mod n).
    replace ((h + d * r) * inv (nonce d h)) with (inv (nonce d h) * (h + r * d)) by ring.
    set (s := (inv (nonce d h) * (h + r * d)) mod n).
    destruct ((r =? 0) || (s =? 0)); [reflexivity|].
    cbn [omap bind EcdsaSpec.low_s].
    destruct (n / 2 <? s); reflexivity.
  Qed.
End Algebra.

(** * The hypotheses are satisfiable: a toy instance

    The cyclic group Z/7 written additively, generator 1, with "coordinates" that have the
    shape of a curve's: x(P) = min(P, 7 - P) (shared by P and -P), the "parity" tells the
    two apart, and [lift] decompresses.  It shows that the Section hypotheses of the C05
    theorems are consistent ([Toy.satisfiable]; the [Example]s of Props/C05.v instantiate them). *)
Module Toy.
  Definition n : Z := 7.
  Definition E : Type := Z.
  Definition G : E := 1.
  Definition mul (a : Z) (P : E) : E := (a * P) mod 7.
  Definition add (P Q : E) : E := (P + Q) mod 7.
  Definition neg (P : E) : E := (- P) mod 7.
  Definition xcoord (P : E) : Z := let m := P mod 7 in if m <=? 3 then m else 7 - m.
  Definition yodd (P : E) : bool := 3 <? P mod 7.
  Definition lift (x : Z) (v : bool) : option E :=
    if (1 <=? x) && (x <=? 3) then Some (if v then 7 - x else x) else None.
  Definition inv (a : Z) : Z :=
    match a mod 7 with 1 => 1 | 2 => 4 | 3 => 5 | 4 => 2 | 5 => 3 | 6 => 6 | _ => 0 end.
  Definition nonce (d h : Z) : Z := 1 + (d + h) mod 6.

  Lemma mod7_ind (P : Z -> Prop) : P 0 -> P 1 -> P 2 -> P 3 -> P 4 -> P 5 -> P 6 -> forall k, P (k mod 7).
  Proof.
    intros H0 H1 H2 H3 H4 H5 H6 k. pose proof (Z.mod_pos_bound k 7 eq_refl) as Hk.
    assert (E : k mod 7 = 0 \/ k mod 7 = 1 \/ k mod 7 = 2 \/ k mod 7 = 3 \/ k mod 7 = 4
                \/ k mod 7 = 5 \/ k mod 7 = 6) by lia.
    destruct E as [E|[E|[E|[E|[E|[E|E]]]]]]; rewrite E; assumption.
  Qed.

  Lemma mulG k : mul k G = k mod 7.
  Proof. unfold mul, G. rewrite Z.mul_1_r. reflexivity. Qed.

  Lemma n_gt1 : 1 < n.
  Proof. reflexivity. Qed.

  Lemma inv_ok a : a mod n <> 0 -> (a * inv a) mod n = 1.
  Proof.
    unfold n, inv. rewrite <- Z.mul_mod_idemp_l by lia.
    pattern (a mod 7). apply mod7_ind; [congruence|reflexivity..].
  Qed.

  Lemma mul_add a b P : add (mul a P) (mul b P) = mul (a + b) P.
  Proof.
    unfold add, mul. rewrite <- Z.add_mod by lia. f_equal. ring.
  Qed.

  Lemma mul_mul a b P : mul a (mul b P) = mul (a * b) P.
  Proof.
    unfold mul. rewrite Z.mul_mod_idemp_r by lia. f_equal. ring.
  Qed.

  Lemma mul_mod a : mul (a mod n) G = mul a G.
  Proof.
    unfold mul, n. rewrite Z.mul_mod_idemp_l by lia. reflexivity.
  Qed.

  Lemma neg_mul P : neg P = mul (-1) P.
  Proof. unfold neg, mul. replace (- P) with (-1 * P) by ring. reflexivity. Qed.

  Lemma x_neg k : xcoord (neg (mul k G)) = xcoord (mul k G).
  Proof.
    rewrite mulG. pattern (k mod 7). apply mod7_ind; reflexivity.
  Qed.

  Lemma lift_ok k : k mod n <> 0 ->
    lift (xcoord (mul k G)) (yodd (mul k G)) = Some (mul k G).
  Proof.
    unfold n. rewrite mulG. pattern (k mod 7). apply mod7_ind; [congruence|reflexivity..].
  Qed.

  Lemma lift_neg k : k mod n <> 0 ->
    lift (xcoord (mul k G)) (negb (yodd (mul k G))) = Some (neg (mul k G)).
  Proof.
    unfold n. rewrite mulG. pattern (k mod 7). apply mod7_ind; [congruence|reflexivity..].
  Qed.

  Lemma nonce_range d h : 0 < nonce d h < n.
  Proof. unfold nonce, n. pose proof (Z.mod_pos_bound (d + h) 6). lia. Qed.

  Lemma x_small P : 0 <= xcoord P < n.
  Proof.
    unfold xcoord, n. cbv zeta. pose proof (Z.mod_pos_bound P 7).
    destruct (P mod 7 <=? 3) eqn:Hc; [apply Z.leb_le in Hc|apply Z.leb_gt in Hc]; lia.
  Qed.

  Definition sign := Ecdsa.sign E G mul xcoord yodd n inv nonce.
  Definition verify := EcdsaSpec.verify E G mul add xcoord n inv.
  Definition recover := EcdsaSpec.recover E G mul add neg lift n inv.

  (** all ten hypotheses at once *)
  Definition hypotheses
      (E : Type) (G : E) (mul : Z -> E -> E) (add : E -> E -> E) (neg : E -> E)
      (xcoord : E -> Z) (yodd : E -> bool) (lift : Z -> bool -> option E)
      (n : Z) (inv : Z -> Z) (nonce : Z -> Z -> Z) : Prop :=
    1 < n /\
    (forall a, a mod n <> 0 -> (a * inv a) mod n = 1) /\
    (forall a b P, add (mul a P) (mul b P) = mul (a + b) P) /\
    (forall a b P, mul a (mul b P) = mul (a * b) P) /\
    (forall a, mul (a mod n) G = mul a G) /\
    (forall P, neg P = mul (-1) P) /\
    (forall k, xcoord (neg (mul k G)) = xcoord (mul k G)) /\
    (forall k, k mod n <> 0 -> lift (xcoord (mul k G)) (yodd (mul k G)) = Some (mul k G)) /\
    (forall k, k mod n <> 0 ->
       lift (xcoord (mul k G)) (negb (yodd (mul k G))) = Some (neg (mul k G))) /\
    (forall d h, 0 < nonce d h < n).

  Lemma hypotheses_hold : hypotheses E G mul add neg xcoord yodd lift n inv nonce.
  Proof.
    exact (conj n_gt1 (conj inv_ok (conj mul_add (conj mul_mul (conj mul_mod (conj neg_mul
             (conj x_neg (conj lift_ok (conj lift_neg nonce_range))))))))).
  Qed.

  Lemma satisfiable :
    exists (E : Type) (G : E) mul add neg xcoord yodd lift n inv nonce,
      hypotheses E G mul add neg xcoord yodd lift n inv nonce.
  Proof.
    exists E, G, mul, add, neg, xcoord, yodd, lift, n, inv, nonce. exact hypotheses_hold.
  Qed.

  (** the theorems, hypothesis-free on the toy instance *)
  Lemma toy_valid_recover d h r s v :
    sign d h = Ok (r, s, v) -> 0 < d < n ->
    0 < r < n /\ 0 < s <= n / 2 /\ verify (mul d G) h r s = true /\
    recover h r s v = Some (mul d G).
  Proof.
    intros H Hd.
    pose proof (C05_valid E G mul add neg xcoord yodd n inv nonce
                  n_gt1 inv_ok mul_add mul_mul mul_mod neg_mul x_neg nonce_range
                  d h r s v H Hd) as (Hr & Hs & Hv).
    pose proof (C05_recover E G mul add neg xcoord yodd lift n inv nonce
                  n_gt1 inv_ok mul_add mul_mul mul_mod neg_mul lift_ok lift_neg nonce_range
                  d h r s v H Hd (x_small _)) as Hrec.
    repeat split; tauto.
  Qed.

  (** both branches of the normalisation occur, and so does the error branch (s = 0) *)
  Lemma toy_sign_examples :
    sign 1 0 = Ok (2, 1, false) /\     (* raw s = 1: kept *)
    sign 3 4 = Ok (2, 2, true) /\      (* raw s = 5 > 3: s = 7 - 5, parity of y(R) = false negated *)
    sign 3 5 = Err.
  Proof. vm_compute. repeat split; reflexivity. Qed.
End Toy.

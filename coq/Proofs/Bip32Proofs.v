(** Proofs for C03: [Model/Bip32.v] ([derive]) refines [Spec/Bip32Spec.v] (BIP-32 CKDpriv).

    The 64-byte buffer of the code is read as an extended private key by [xprv_of]; one loop
    iteration then is one [ckd_priv_strict] ([derive_step_refines]), and the loop follows by
    induction on the path.  The check "child key = 0", which BIP-32 makes at once, is made by
    the code when it next reads the buffer; [xprv_of] is where the two meet. *)
From Coq Require Import String.
From Coq Require Import List NArith Bool PeanoNat Lia.
From HDW Require Import Lib.Outcome Lib.Bits Lib.Bytes Model.Path Model.Bip32 Spec.Bip32Spec.
Import ListNotations.
Open Scope N_scope.

(** * Indices *)

Lemma lor_is_add v : v < 2^31 -> N.lor v (2^31) = v + 2^31.
Proof. apply lor_pow2_add. Qed.

Lemma index_lt c : comp_value c < 2^31 -> index c < 2^32.
Proof. destruct c as [v|v]; cbn [comp_value index]; lia. Qed.

(** the vocabulary of C14 ([Model/Path.v]) and of this property coincide *)
Lemma canonical_path_in_range : canonical_path = in_range.
Proof. reflexivity. Qed.

(** * Slices and scalars *)

Lemma slice_to_ok k buf : (k <= length buf)%nat -> slice_to k buf = Ok (firstn k buf).
Proof. intros H. unfold slice_to. rewrite (proj2 (Nat.ltb_ge _ _) H). reflexivity. Qed.

Lemma slice_to_cases k buf : slice_to k buf = Panic \/ slice_to k buf = Ok (firstn k buf).
Proof. unfold slice_to. destruct (length buf <? k)%nat; auto. Qed.

Lemma n_lt_2_256 : secp256k1_n < 256 ^ N.of_nat 32.
Proof. vm_compute. reflexivity. Qed.

Definition bad_scalar (v : N) : bool := (v =? 0) || (secp256k1_n <=? v).

Lemma secret_from_slice_eq b :
  secret_from_slice b = if bad_scalar (be_val b) then Err else Ok (be_val b).
Proof. reflexivity. Qed.

Lemma bad_scalar_false v : bad_scalar v = false <-> 0 < v < secp256k1_n.
Proof. unfold bad_scalar. rewrite orb_false_iff, N.eqb_neq, N.leb_gt. lia. Qed.

Lemma secret_from_slice_ok b k :
  secret_from_slice b = Ok k <-> k = be_val b /\ 0 < k < secp256k1_n.
Proof.
  rewrite secret_from_slice_eq. destruct (bad_scalar (be_val b)) eqn:E.
  - split; [discriminate|]. intros [-> H]. apply bad_scalar_false in H. congruence.
  - apply bad_scalar_false in E. split; [intros [= <-]; auto|intros [-> _]; reflexivity].
Qed.

Lemma be_val_secret k : k < secp256k1_n -> be_val (be_fixed 32 k) = k.
Proof. intros H. apply be_val_fixed. pose proof n_lt_2_256. lia. Qed.

Definition to_outcome {A} (o : option A) : outcome A :=
  match o with Some a => Ok a | None => Err end.

Lemma to_outcome_ok {A} (o : option A) a : to_outcome o = Ok a -> o = Some a.
Proof. destruct o; [intros [= ->]; reflexivity|discriminate]. Qed.

Lemma to_outcome_err {A} (o : option A) : to_outcome o = Err -> o = None.
Proof. destruct o; [discriminate|reflexivity]. Qed.

Lemma child_data_spec (pubc : N -> bytes) k c :
  comp_value c < 2^31 -> child_data pubc k c = ckd_data pubc k (index c).
Proof.
  intros Hc. destruct c as [v|v]; cbn [comp_value index child_data] in *;
    unfold ckd_data, ser256, ser32.
  - change HARDENED with (2^31). rewrite (lor_is_add v Hc).
    replace (2^31 <=? v + 2^31) with true by lia. reflexivity.
  - replace (2^31 <=? v) with false by lia. reflexivity.
Qed.

(** * Spec-only facts: BIP-32 versus BIP-32 with the extra "IL = 0" rule *)

Section SpecFacts.
  Variable hmac512 : bytes -> bytes -> bytes.
  Variable serP_point : N -> bytes.

  Notation ckd_priv := (ckd_priv hmac512 serP_point).
  Notation ckd_priv_strict := (ckd_priv_strict hmac512 serP_point).
  Notation ckd_I := (ckd_I hmac512 serP_point).

  (** the strict derivation agrees with BIP-32's, or refuses where some IL is 0 *)
  Lemma ckd_path_strict_cases is : forall x,
    ckd_path ckd_priv_strict x is = ckd_path ckd_priv x is
    \/ (ckd_path ckd_priv_strict x is = None /\ zero_IL_below hmac512 serP_point x is).
  Proof.
    induction is as [|i r IH]; intros x; cbn [ckd_path zero_IL_below]; [left; reflexivity|].
    unfold Bip32Spec.ckd_priv_strict.
    destruct (N.eqb_spec (parse256 (IL (ckd_I x i))) 0) as [Z|_]; [right; auto|].
    destruct (ckd_priv x i) as [x'|]; [|left; reflexivity].
    destruct (IH x') as [E|[E Hz]]; auto.
  Qed.

  Lemma bip32_strict_cases S is :
    bip32_strict hmac512 serP_point S is = bip32 hmac512 serP_point S is
    \/ (bip32_strict hmac512 serP_point S is = None /\ zero_IL_along hmac512 serP_point S is).
  Proof.
    unfold bip32_strict, bip32, zero_IL_along. destruct (master hmac512 S) as [m|]; [|left; reflexivity].
    destruct (ckd_path_strict_cases is m) as [->|[-> Hz]]; auto.
  Qed.

  Lemma bip32_strict_some S is k :
    bip32_strict hmac512 serP_point S is = Some k -> bip32 hmac512 serP_point S is = Some k.
  Proof. destruct (bip32_strict_cases S is) as [->|[-> _]]; [auto|discriminate]. Qed.

  Lemma bip32_some_strict S is k :
    bip32 hmac512 serP_point S is = Some k ->
    bip32_strict hmac512 serP_point S is = Some k \/ zero_IL_along hmac512 serP_point S is.
  Proof. destruct (bip32_strict_cases S is) as [->|[_ Hz]]; auto. Qed.
End SpecFacts.

(** * The model against the spec *)

Section Refinement.
  Variable hmac512 : bytes -> bytes -> bytes.
  Variable pub_compressed : N -> bytes.
  Hypothesis hmac512_length : forall k m, length (hmac512 k m) = 64%nat.
  (* Every lemma of the section needs it, except those proved with [Proof using Type]. *)

  Notation derive_step := (derive_step hmac512 pub_compressed).
  Notation derive_loop := (derive_loop hmac512 pub_compressed).
  Notation derive := (derive hmac512 pub_compressed).
  Notation child_data := (child_data pub_compressed).
  Notation ckd_priv_strict := (ckd_priv_strict hmac512 pub_compressed).
  Notation ckd_data := (ckd_data pub_compressed).
  Notation bip32 := (bip32 hmac512 pub_compressed).
  Notation bip32_strict := (bip32_strict hmac512 pub_compressed).

  Lemma derive_step_eq (ek : bytes) c :
    (32 <= length ek)%nat ->
    derive_step ek c =
      let k := be_val (firstn 32 ek) in
      if bad_scalar k then Err else
      let I := hmac512 (skipn 32 ek) (child_data k c) in
      let il := be_val (firstn 32 I) in
      if bad_scalar il then Err else
      Ok (be_fixed 32 ((il + k) mod secp256k1_n) ++ skipn 32 I).
  Proof.
    intros Hlen. unfold Bip32.derive_step.
    rewrite (slice_to_ok 32 ek Hlen). cbn [bind].
    rewrite secret_from_slice_eq. cbv zeta.
    destruct (bad_scalar (be_val (firstn 32 ek))); [reflexivity|]. cbn [bind].
    rewrite slice_to_ok by (rewrite hmac512_length; repeat constructor).
    cbn [bind]. rewrite secret_from_slice_eq.
    destruct (bad_scalar _); reflexivity.
  Qed.

  Lemma derive_step_cases (ek : bytes) c :
    (32 <= length ek)%nat ->
    derive_step ek c = Err \/ exists ek', derive_step ek c = Ok ek' /\ length ek' = 64%nat.
  Proof.
    intros Hlen. rewrite (derive_step_eq ek c Hlen). cbv zeta.
    destruct (bad_scalar _); [left; reflexivity|].
    destruct (bad_scalar _); [left; reflexivity|].
    right. eexists; split; [reflexivity|].
    rewrite app_length, be_fixed_length, skipn_length, hmac512_length. reflexivity.
  Qed.

  (** The buffer as BIP-32 reads it: (parse256 of the left half, right half), invalid when the
      key is 0 or >= n.  [master S] is [xprv_of (master_extended_key S)] by computation. *)
  Definition xprv_of (ek : bytes) : option xprv :=
    let k := be_val (firstn 32 ek) in
    if bad_scalar k then None else Some (k, skipn 32 ek).

  (** the strict derivation below an extended key that may already be invalid *)
  Definition strict_below (o : option xprv) (is : list N) : option N :=
    match o with Some x => option_map fst (ckd_path ckd_priv_strict x is) | None => None end.

  Lemma strict_below_cons o i is :
    strict_below o (i :: is)
    = strict_below (match o with Some x => ckd_priv_strict x i | None => None end) is.
  Proof using Type.
    destruct o as [x|]; [|reflexivity]. cbn [strict_below ckd_path].
    destruct (ckd_priv_strict x i); reflexivity.
  Qed.

  Lemma derive_step_refines (ek : bytes) c :
    (32 <= length ek)%nat -> comp_value c < 2^31 ->
    match xprv_of ek with Some x => ckd_priv_strict x (index c) | None => None end
    = match derive_step ek c with Ok ek' => xprv_of ek' | _ => None end.
  Proof.
    intros Hlen Hc. rewrite (derive_step_eq ek c Hlen). unfold xprv_of. cbv zeta.
    set (k := be_val (firstn 32 ek)). destruct (bad_scalar k); [reflexivity|].
    unfold Bip32Spec.ckd_priv_strict, ckd_priv, ckd_I, parse256, IL, IR. cbn [fst].
    rewrite <- (child_data_spec pub_compressed k c Hc). change bip32_n with secp256k1_n.
    set (I := hmac512 (skipn 32 ek) (child_data k c)).
    set (il := be_val (firstn 32 I)).
    set (ki := (il + k) mod secp256k1_n).
    assert (Hki : ki < secp256k1_n) by (apply N.mod_lt; discriminate).
    unfold bad_scalar at 1. destruct (il =? 0); [reflexivity|].
    destruct (secp256k1_n <=? il); [reflexivity|]. cbn [orb].
    (* the code stores ki and refuses ki = 0 when it reads the buffer again *)
    rewrite (firstn_app_len _ _ 32 (be_fixed_length 32 ki)).
    rewrite (skipn_app_len _ _ 32 (be_fixed_length 32 ki)).
    rewrite (be_val_secret ki Hki). unfold bad_scalar.
    replace (secp256k1_n <=? ki) with false by lia. rewrite orb_false_r. reflexivity.
  Qed.

  (** What is left to do after the loop: [PrivateKey::new(&extended_key[..32])]. *)
  Definition finish (o : outcome bytes) : outcome N :=
    bind o (fun ek => bind (slice_to 32 ek) secret_from_slice).

  Lemma derive_eq seed p : derive seed p = finish (derive_loop (master_extended_key hmac512 seed) p).
  Proof using Type. reflexivity. Qed.

  Lemma finish_ok (ek : bytes) :
    (32 <= length ek)%nat -> finish (Ok ek) = to_outcome (strict_below (xprv_of ek) []).
  Proof using Type.
    intros Hlen. unfold finish, xprv_of. cbn [bind]. rewrite (slice_to_ok 32 ek Hlen). cbn [bind].
    rewrite secret_from_slice_eq. destruct (bad_scalar _); reflexivity.
  Qed.

  Lemma master_length seed : (32 <= length (master_extended_key hmac512 seed))%nat.
  Proof.
    unfold master_extended_key. rewrite hmac512_length. repeat constructor.
  Qed.

  Lemma loop_graceful p : forall ek : bytes, (32 <= length ek)%nat -> graceful (finish (derive_loop ek p)).
  Proof.
    induction p as [|c r IH]; intros ek Hlen; cbn [Bip32.derive_loop].
    - rewrite (finish_ok ek Hlen). apply graceful_of_option.
    - destruct (derive_step_cases ek c Hlen) as [E|[ek' [E L]]]; rewrite E; cbn [bind].
      + apply graceful_err.
      + apply IH. rewrite L. repeat constructor.
  Qed.

  Lemma total seed p : graceful (derive seed p).
  Proof. rewrite derive_eq. apply loop_graceful, master_length. Qed.

  Lemma loop_refines p : forall ek : bytes,
    canonical_path p -> (32 <= length ek)%nat ->
    finish (derive_loop ek p) = to_outcome (strict_below (xprv_of ek) (map index p)).
  Proof.
    induction p as [|c r IH]; intros ek Hp Hlen; cbn [Bip32.derive_loop map].
    - apply finish_ok, Hlen.
    - inversion Hp as [|c' r' Hc Hr]; subst c' r'.
      rewrite strict_below_cons, (derive_step_refines ek c Hlen Hc).
      destruct (derive_step_cases ek c Hlen) as [E|[ek' [E L]]]; rewrite E; cbn [bind].
      + reflexivity.
      + apply (IH ek' Hr). rewrite L. repeat constructor.
  Qed.

  Lemma refines seed p :
    canonical_path p ->
    derive seed p = to_outcome (bip32_strict seed (map index p)).
  Proof.
    intros Hp. rewrite derive_eq. apply (loop_refines p _ Hp), master_length.
  Qed.

  Lemma complete seed p k :
    canonical_path p -> bip32 seed (map index p) = Some k ->
    derive seed p = Ok k \/ zero_IL_along hmac512 pub_compressed seed (map index p).
  Proof.
    intros Hp H. destruct (bip32_some_strict _ _ _ _ _ H) as [Hs|Hz]; [left|right; exact Hz].
    rewrite (refines seed p Hp), Hs. reflexivity.
  Qed.

  Lemma derive_range seed p k : derive seed p = Ok k -> 0 < k < secp256k1_n.
  Proof using Type.
    rewrite derive_eq. unfold finish. intros H.
    apply bind_ok in H as [ek [_ H]]. apply bind_ok in H as [s [_ H]].
    apply secret_from_slice_ok in H. exact (proj2 H).
  Qed.

  Lemma derive_secret_roundtrip seed p k :
    derive seed p = Ok k ->
    derive_secret hmac512 pub_compressed seed p = Ok (be_fixed 32 k)
    /\ length (be_fixed 32 k) = 32%nat /\ be_val (be_fixed 32 k) = k.
  Proof using Type.
    intros H. unfold derive_secret. rewrite H. split; [reflexivity|]. split; [apply be_fixed_length|].
    apply be_val_secret, (derive_range _ _ _ H).
  Qed.

  (** ** One step made explicit: which bytes go into which HMAC *)

  Lemma chain_code_carried (ek : bytes) c (ek' : bytes) :
    (32 <= length ek)%nat ->
    derive_step ek c = Ok ek' ->
    let k := be_val (firstn 32 ek) in
    let I := hmac512 (skipn 32 ek) (child_data k c) in
    skipn 32 ek' = skipn 32 I
    /\ firstn 32 ek' = be_fixed 32 ((be_val (firstn 32 I) + k) mod secp256k1_n).
  Proof.
    intros Hlen H. rewrite (derive_step_eq ek c Hlen) in H. cbv zeta in *.
    destruct (bad_scalar _); [discriminate|].
    destruct (bad_scalar _); [discriminate|].
    apply Ok_inj in H. subst ek'. split.
    - apply skipn_app_len, be_fixed_length.
    - apply firstn_app_len, be_fixed_length.
  Qed.

  (** the first child of the master key, for a hardened and for a normal component alike *)
  Lemma one_step seed c k' :
    derive seed [c] = Ok k' ->
    let I := hmac512 (s2l "Bitcoin seed") seed in
    let k := be_val (firstn 32 I) in
    let I' := hmac512 (skipn 32 I) (child_data k c) in
    k' = (be_val (firstn 32 I') + k) mod secp256k1_n.
  Proof.
    rewrite derive_eq. cbn [Bip32.derive_loop].
    rewrite (derive_step_eq _ c (master_length seed)). cbv zeta.
    destruct (bad_scalar _); [discriminate|].
    destruct (bad_scalar _); [discriminate|].
    cbn [bind]. unfold finish. cbn [bind].
    rewrite slice_to_ok by (rewrite app_length, be_fixed_length; apply Nat.le_add_r).
    cbn [bind]. rewrite (firstn_app_len _ _ 32 (be_fixed_length 32 _)).
    intros H. apply secret_from_slice_ok in H as [-> _].
    apply be_val_secret, N.mod_lt. discriminate.
  Qed.
End Refinement.

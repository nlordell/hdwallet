(** The order on names ([text_lt], [text_ltb]: Rust's [Ord for str] on code points) and association
    lists kept strictly sorted by it: [BTreeMap::insert] as [obj_insert] ([Model/JsonText.v], any
    value type) and [bt_insert] ([Model/Eip712Types.v], the same function at [list member]).
    Shared by the EIP-712 type proofs and the JSON object proofs. *)
From Coq Require Import List NArith Bool Lia Sorted.
From HDW Require Import Lib.Bytes Model.Eip712Types Model.JsonText Spec.Eip712TypeSpec.
Import ListNotations.
Open Scope N_scope.

Lemma text_ltb_spec a : forall b, text_ltb a b = true <-> text_lt a b.
Proof.
  induction a as [|x a IH]; intros [|y b]; cbn [text_ltb].
  - split; [discriminate | inversion 1].
  - split; [constructor | reflexivity].
  - split; [discriminate | inversion 1].
  - destruct (N.ltb_spec x y) as [Hlt|Hge].
    + split; [intros _; constructor; assumption | reflexivity].
    + destruct (N.eqb_spec x y) as [->|Hne].
      * rewrite IH. split; [constructor; assumption|].
        inversion 1; subst; [lia | assumption].
      * split; [discriminate|]. inversion 1; subst; [lia | congruence].
Qed.

Lemma text_lt_irrefl a : ~ text_lt a a.
Proof. induction a as [|x a IH]; inversion 1; subst; [lia | auto]. Qed.

Lemma text_lt_trans a b c : text_lt a b -> text_lt b c -> text_lt a c.
Proof.
  intros H; revert c; induction H as [y b|x y a b Hxy|x a b Hab IH]; intros c Hc;
    inversion Hc; subst; try (constructor; (assumption || lia)).
  apply text_lt_tail. apply IH; assumption.
Qed.

Lemma text_lt_trichotomy a : forall b, text_lt a b \/ a = b \/ text_lt b a.
Proof.
  induction a as [|x a IH]; intros [|y b].
  - right; left; reflexivity.
  - left; constructor.
  - right; right; constructor.
  - destruct (N.lt_trichotomy x y) as [H|[H|H]].
    + left; constructor; assumption.
    + subst y. destruct (IH b) as [H|[H|H]].
      * left; constructor; assumption.
      * right; left; congruence.
      * right; right; constructor; assumption.
    + right; right; constructor; assumption.
Qed.

Lemma text_ltb_false a b : text_ltb a b = false -> a <> b -> text_lt b a.
Proof.
  intros Hf Hne. destruct (text_lt_trichotomy a b) as [H|[H|H]]; [|contradiction|assumption].
  apply text_ltb_spec in H. congruence.
Qed.

Lemma sorted_nodup l : StronglySorted text_lt l -> NoDup l.
Proof.
  induction 1 as [|a l _ IH HF]; constructor; [|assumption].
  intros Hin. rewrite Forall_forall in HF. exact (text_lt_irrefl a (HF a Hin)).
Qed.

(** A list whose keys are strictly increasing is determined by its set of elements: the two heads
    are equal, since otherwise each lies in the other's tail and so each key is below the other. *)
Lemma sorted_unique_by {A} (key : A -> text) : forall l1 l2,
  StronglySorted text_lt (map key l1) -> StronglySorted text_lt (map key l2) ->
  (forall x, In x l1 <-> In x l2) -> l1 = l2.
Proof.
  induction l1 as [|x l1 IH]; intros [|y l2] H1 H2 Heq.
  - reflexivity.
  - destruct (proj2 (Heq y) (or_introl eq_refl)).
  - destruct (proj1 (Heq x) (or_introl eq_refl)).
  - cbn [map] in H1, H2. inversion H1 as [|? ? S1 F1]; inversion H2 as [|? ? S2 F2]; subst.
    rewrite Forall_map, Forall_forall in F1, F2.
    assert (Hxy : x = y).
    { destruct (proj1 (Heq x) (or_introl eq_refl)) as [E|Hx]; [auto|].
      destruct (proj2 (Heq y) (or_introl eq_refl)) as [E|Hy]; [auto|].
      destruct (text_lt_irrefl (key x)). apply text_lt_trans with (key y); auto. }
    subst y. f_equal. apply IH; [assumption|assumption|].
    intros z; split; intros Hz.
    + destruct (proj1 (Heq z) (or_intror Hz)) as [<-|Hz2]; [|assumption].
      destruct (text_lt_irrefl _ (F1 x Hz)).
    + destruct (proj2 (Heq z) (or_intror Hz)) as [<-|Hz2]; [|assumption].
      destruct (text_lt_irrefl _ (F2 x Hz)).
Qed.

Lemma sorted_unique : forall l1 l2,
  StronglySorted text_lt l1 -> StronglySorted text_lt l2 ->
  (forall T, In T l1 <-> In T l2) -> l1 = l2.
Proof. intros l1 l2 H1 H2. apply (sorted_unique_by (fun T => T)); rewrite map_id; assumption. Qed.

Lemma obj_insert_in {V} k (v : V) m e : In e (obj_insert k v m) -> e = (k, v) \/ In e m.
Proof.
  induction m as [|[k' v'] r IH]; cbn [obj_insert].
  - intros [<-|[]]. left; reflexivity.
  - destruct (text_ltb k k'); [|destruct (list_eqb k k')]; cbn [In]; intros [<-|H]; auto.
    apply IH in H. tauto.
Qed.

Lemma obj_insert_keys {V} k (v : V) m T :
  In T (map fst (obj_insert k v m)) <-> T = k \/ In T (map fst m).
Proof.
  assert (E : k = T <-> T = k) by (split; auto).
  induction m as [|[k' v'] r IH]; cbn [obj_insert].
  - cbn. tauto.
  - destruct (text_ltb k k'); [cbn; tauto|].
    destruct (list_eqb k k') eqn:He; cbn [map fst In].
    + apply list_eqb_spec in He. subst k'. tauto.
    + rewrite IH. tauto.
Qed.

Lemma obj_insert_sorted {V} k (v : V) m :
  StronglySorted text_lt (map fst m) -> StronglySorted text_lt (map fst (obj_insert k v m)).
Proof.
  induction m as [|[k' v'] r IH]; cbn [obj_insert].
  - intros _. cbn. constructor; constructor.
  - intros HS. cbn [map fst] in HS. inversion HS as [|? ? HSr HF]; subst.
    destruct (text_ltb k k') eqn:Hlt.
    + apply text_ltb_spec in Hlt. cbn [map fst]. constructor; [exact HS|].
      constructor; [assumption|].
      eapply Forall_impl; [|exact HF]. intros T HT. eapply text_lt_trans; eassumption.
    + destruct (list_eqb k k') eqn:He.
      * apply list_eqb_spec in He. subst k'. cbn [map fst]. exact HS.
      * cbn [map fst]. constructor; [apply IH; assumption|].
        apply Forall_forall. intros T HT. apply obj_insert_keys in HT as [->|HT].
        -- apply text_ltb_false; [assumption|]. intros E. subst k'.
           rewrite list_eqb_refl in He. discriminate.
        -- rewrite Forall_forall in HF. auto.
Qed.

Lemma bt_insert_eq k v m : bt_insert k v m = obj_insert k v m.
Proof.
  induction m as [|[k' v'] r IH]; [reflexivity|]. cbn [bt_insert obj_insert]. rewrite IH. reflexivity.
Qed.

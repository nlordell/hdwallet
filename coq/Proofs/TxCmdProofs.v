(** C06 / C11 / C15: what [encode] emits and what is signed, in terms of [Spec/TxSpec.v]; the
    emitted bytes decode to the signed tree; the payload fixes kind and chain id; the
    [sign transaction] / [hash transaction] commands and the replay-protection guard. *)
From Coq Require Import String.
From Coq Require Import List NArith Lia.
From HDW Require Import Lib.Outcome Lib.Bytes Lib.Hex Model.Json Model.Num Model.SigText
  Model.Tx Spec.RlpSpec Spec.TxSpec Proofs.TxProofs Proofs.TxParseProofs.
From HDW Require Proofs.NumProofs Proofs.RlpProofs Proofs.SigTextProofs.
Import ListNotations.
Open Scope N_scope.
Open Scope outcome_scope.

(** * C06: the emitted bytes *)

Theorem encode_signed_bytes t σ :
  wf_tx t -> tx_fits t -> sig_fits σ -> encode t σ = Ok (signed_bytes t σ).
Proof.
  intros Hw Hf Hs. unfold encode, signed_bytes. rewrite <- tree_of_some.
  apply rlp_encode_enc; assumption.
Qed.

Theorem preimage_payload t : wf_tx t -> tx_fits t -> rlp_encode t None = Ok (payload t).
Proof.
  intros Hw Hf. unfold payload. rewrite <- tree_of_none. apply rlp_encode_enc; [assumption..|exact I].
Qed.

Theorem signing_payload keccak t :
  wf_tx t -> tx_fits t -> signing_message keccak t = Ok (keccak (payload t)).
Proof. intros Hw Hf. unfold signing_message. rewrite (preimage_payload t Hw Hf). reflexivity. Qed.

Lemma body_prefix t x : body t (type_prefix t ++ x) = x.
Proof. apply skipn_app_len. reflexivity. Qed.

Lemma tree_decodes t σo :
  wf_tx t -> tx_fits t -> sig_opt_fits σo ->
  dec_strict (body t (type_prefix t ++ enc (tree_of t σo))) = Some (tree_of t σo, []).
Proof. intros Hw Hf Hs. rewrite body_prefix. apply RlpProofs.roundtrip_nil, wf_tree; assumption. Qed.

Theorem decodes t σ bs :
  wf_tx t -> tx_fits t -> sig_fits σ -> encode t σ = Ok bs ->
  dec_strict (body t bs) = Some (signed_tree t σ, []).
Proof.
  intros Hw Hf Hs H. rewrite (encode_signed_bytes t σ Hw Hf Hs) in H. injection H as <-.
  unfold signed_bytes. rewrite <- tree_of_some. exact (tree_decodes t (Some σ) Hw Hf Hs).
Qed.

(** what the decoder's strings mean: an [Int] reads back as its integer ([Int v] is a [Str]
    only after unfolding, hence the [match]) *)
Lemma int_of_Int v : match Int v with Str b => int_of_str b = Some v | Lst _ => False end.
Proof. exact (proj1 (RlpProofs.uint_canonical v)). Qed.

(** * C11: [v] and the chain id inside what is signed *)

Theorem v_no_panic_parsed j t c σ :
  tx_of_json j = Ok (Legacy t) -> l_chain_id t = Some c ->
  sig_v σ (Some c) = Ok (35 + 2 * c + parity_N σ).
Proof.
  intros H Hc. destruct (tx_of_json_is_obj _ _ H) as [kvs ->].
  apply tx_of_json_iff in H as [_ H]. cbn [tx_parsed] in H.
  destruct H as (_ & _ & _ & _ & _ & _ & H). rewrite Hc in H.
  apply legacy_chain_some in H as [_ Hb]. apply sig_v_exact, Hb.
Qed.

Theorem too_large kvs cj c :
  kind_of_keys kvs = KLegacy -> obj_get k_chain_id kvs = Some cj -> permissive_u256 cj = Ok c ->
  2 ^ 256 <= 2 * c + 36 -> tx_of_json (JObj kvs) = Err.
Proof.
  intros Hk Hget Hc Hbig. apply reject_field. right. right. right. left.
  rewrite Hk. cbn [chain_field]. unfold legacy_chain_field. rewrite Hget.
  assert (Hn : cj <> JNull) by (intros ->; discriminate).
  rewrite (NumProofs.chainid_reject (Some cj) c (NumProofs.numopt_of cj c Hn Hc) Hbig).
  discriminate.
Qed.

(** The chain id can be read off the unsigned tree: the first member of a typed transaction,
    the seventh of a legacy one (absent when there are only six). *)
Definition chain_of_tree (k : tx_kind) (i : item) : option N :=
  match k, i with
  | KLegacy, Lst [_; _; _; _; _; _; Str c; _; _] => Some (be_val c)
  | KLegacy, _ => None
  | _, Lst (Str c :: _) => Some (be_val c)
  | _, _ => None
  end.

Lemma chain_of_unsigned_tree t : chain_of_tree (kind t) (unsigned_tree t) = tx_chain_id t.
Proof.
  destruct t as [t|t|t]; cbn; [destruct (l_chain_id t); cbn|..]; rewrite ?be_val_min; reflexivity.
Qed.

(** The first byte of the payload tells the kind: a list header is at least 0xc0, the type
    bytes are 1 and 2. *)
Lemma enc_Lst_head l : 192 <= hd 0 (enc (Lst l)).
Proof. cbn [enc]. cbv zeta. unfold enc_len. destruct (_ <? 56); cbn [app hd]; lia. Qed.

Lemma payload_head t :
  match kind t with
  | KLegacy => 192 <= hd 0 (payload t)
  | KEip2930 => hd 0 (payload t) = 1
  | KEip1559 => hd 0 (payload t) = 2
  end.
Proof. destruct t as [t|t|t]; [exact (enc_Lst_head _)|reflexivity..]. Qed.

Lemma payload_kind t1 t2 : payload t1 = payload t2 -> kind t1 = kind t2.
Proof.
  intros H. pose proof (payload_head t1) as H1. pose proof (payload_head t2) as H2.
  rewrite H in H1. destruct (kind t1), (kind t2); (reflexivity || lia).
Qed.

Theorem payload_binds_chain t1 t2 :
  wf_tx t1 -> tx_fits t1 -> wf_tx t2 -> tx_fits t2 ->
  payload t1 = payload t2 -> kind t1 = kind t2 /\ tx_chain_id t1 = tx_chain_id t2.
Proof.
  intros Hw1 Hf1 Hw2 Hf2 Hp. pose proof (payload_kind t1 t2 Hp) as Hk. split; [exact Hk|].
  pose proof (wf_tree t1 None Hw1 Hf1 I) as W1. pose proof (wf_tree t2 None Hw2 Hf2 I) as W2.
  rewrite tree_of_none in W1, W2. unfold payload in Hp.
  assert (Hpre : type_prefix t1 = type_prefix t2) by (destruct t1, t2; (discriminate || reflexivity)).
  rewrite Hpre in Hp. apply app_inv_head, (RlpProofs.injective _ _ W1 W2) in Hp.
  rewrite <- !chain_of_unsigned_tree, Hk, Hp. reflexivity.
Qed.

(** * The commands *)

Section Commands.
  Variable keccak : bytes -> bytes.
  Variable sign_digest : bytes -> outcome sig.

  Notation sign_cmd := (sign_tx_cmd keccak sign_digest).
  Notation hash_cmd := (hash_tx_cmd keccak).

  Lemma sign_cmd_inv allow sigonly j out :
    sign_cmd allow sigonly j = Ok out ->
    exists t h σ,
      tx_of_json j = Ok t /\ relay_protection_guard allow t = Ok tt
      /\ signing_message keccak t = Ok h /\ sign_digest h = Ok σ
      /\ (if sigonly then out = print_sig σ
          else exists e, encode t σ = Ok e /\ out = s2l "0x" ++ hex_encode e).
  Proof.
    unfold sign_tx_cmd. intros H.
    apply bind_ok in H as (t & Ht & H). apply bind_ok in H as ([] & Hg & H).
    apply bind_ok in H as (h & Hh & H). apply bind_ok in H as (σ & Hσ & H).
    exists t, h, σ. repeat split; try assumption.
    destruct sigonly.
    - injection H as <-. reflexivity.
    - apply bind_ok in H as (e & He & [= <-]). eauto.
  Qed.

  Theorem guard sigonly j t :
    tx_of_json j = Ok (Legacy t) -> l_chain_id t = None -> sign_cmd false sigonly j = Err.
  Proof.
    intros Ht Hc. unfold sign_tx_cmd. rewrite Ht. cbn [bind relay_protection_guard].
    rewrite Hc. reflexivity.
  Qed.

  Lemma guard_passes allow t :
    allow = true \/ tx_chain_id t <> None -> relay_protection_guard allow t = Ok tt.
  Proof.
    intros H. destruct t as [t|t|t]; cbn [relay_protection_guard tx_chain_id] in *; try reflexivity.
    destruct (l_chain_id t); [reflexivity|]. destruct H as [-> | H]; [reflexivity|congruence].
  Qed.

  Theorem sign_cmd_spec allow sigonly j t σ :
    tx_of_json j = Ok t -> wf_tx t -> tx_fits t ->
    allow = true \/ tx_chain_id t <> None ->
    sign_digest (keccak (payload t)) = Ok σ -> sig_fits σ ->
    sign_cmd allow sigonly j
    = Ok (if sigonly then print_sig σ else s2l "0x" ++ hex_encode (signed_bytes t σ)).
  Proof.
    intros Ht Hw Hf Hg Hσ Hs. unfold sign_tx_cmd. rewrite Ht. cbn [bind].
    rewrite (guard_passes allow t Hg). cbn [bind].
    rewrite (signing_payload keccak t Hw Hf). cbn [bind]. rewrite Hσ. cbn [bind].
    destruct sigonly; [reflexivity|].
    rewrite (encode_signed_bytes t σ Hw Hf Hs). reflexivity.
  Qed.

  (** C11: with the override, [v] is 27 or 28 *)
  Theorem override_v sigonly j t out :
    (forall h σ, sign_digest h = Ok σ -> valid_sig σ) ->
    doc_tokens_ok j -> tx_of_json j = Ok (Legacy t) -> tx_fits (Legacy t) -> l_chain_id t = None ->
    sign_cmd true sigonly j = Ok out ->
    exists σ,
      sign_digest (keccak (enc (Lst (legacy_fields t)))) = Ok σ
      /\ sig_v σ None = Ok (27 + parity_N σ) /\ parity_N σ <= 1
      /\ out = if sigonly then print_sig σ
               else s2l "0x" ++ hex_encode (enc (legacy_tree t
                      [Int (27 + parity_N σ); Int (sig_r σ); Int (sig_s σ)])).
  Proof.
    intros Hsigner Htok Ht Hf Hc H.
    pose proof (wf_parsed j _ Htok Ht) as Hw.
    destruct (sign_cmd_inv _ _ _ _ H) as (t' & h & σ & Ht' & _ & Hh & Hσ & _).
    rewrite Ht in Ht'. injection Ht' as <-.
    rewrite (signing_payload keccak _ Hw Hf) in Hh. injection Hh as <-.
    rewrite (sign_cmd_spec true sigonly j _ σ Ht Hw Hf (or_introl eq_refl) Hσ) in H
      by exact (SigTextProofs.valid_sig_bounds σ (Hsigner _ _ Hσ)).
    injection H as <-.
    (* without a chain id the payload is the list of the six fields and [spec_v] is 27 + parity *)
    unfold payload, signed_bytes in *. cbn [type_prefix unsigned_tree signed_tree app] in *.
    rewrite Hc in *. cbn [legacy_unsigned_tail] in Hσ. unfold legacy_tree in Hσ. rewrite app_nil_r in Hσ.
    exists σ. split; [exact Hσ|]. split; [apply sig_v_none|]. split; [apply parity_le|reflexivity].
  Qed.

  (** C15: [sign transaction --signature-only | hash transaction --signature] *)
  Theorem pipeline allow j t1 full :
    (forall h σ, sign_digest h = Ok σ -> valid_sig σ) ->
    sign_cmd allow true j = Ok t1 -> sign_cmd allow false j = Ok full ->
    exists σ bs,
      parse_sig t1 = Ok σ /\ full = s2l "0x" ++ hex_encode bs
      /\ hash_cmd j (Some σ) = Ok (s2l "0x" ++ hex_encode (keccak bs)).
  Proof.
    intros Hsigner H1 H2.
    apply sign_cmd_inv in H1 as (t & h & σ & Ht & _ & Hh & Hσ & ->).
    apply sign_cmd_inv in H2 as (t' & h' & σ' & Ht' & _ & Hh' & Hσ' & (e & He & ->)).
    rewrite Ht in Ht'. injection Ht' as <-.
    rewrite Hh in Hh'. injection Hh' as <-.
    rewrite Hσ in Hσ'. injection Hσ' as <-.
    exists σ, e. split; [apply SigTextProofs.roundtrip, (Hsigner _ _ Hσ)|].
    split; [reflexivity|].
    unfold hash_tx_cmd. rewrite Ht. cbn [bind]. rewrite He. reflexivity.
  Qed.

  Theorem sign_cmd_graceful allow sigonly j :
    (forall h, graceful (sign_digest h)) ->
    (forall h σ, sign_digest h = Ok σ -> valid_sig σ) ->
    doc_tokens_ok j -> (forall t, tx_of_json j = Ok t -> tx_fits t) ->
    graceful (sign_cmd allow sigonly j).
  Proof.
    intros Hgs Hsigner Htok Hfits. unfold sign_tx_cmd.
    apply graceful_bind; [apply tx_of_json_graceful|]. intros t Ht.
    pose proof (wf_parsed j t Htok Ht) as Hw. pose proof (Hfits t Ht) as Hf.
    apply graceful_bind.
    { destruct t as [t|t|t]; cbn [relay_protection_guard]; try apply graceful_ok.
      destruct (l_chain_id t); [apply graceful_ok|]. destruct allow; [apply graceful_ok|apply graceful_err]. }
    intros _ _. rewrite (signing_payload keccak t Hw Hf). cbn [bind].
    apply graceful_bind; [apply Hgs|]. intros σ Hσ.
    destruct sigonly; [apply graceful_ok|].
    rewrite (encode_signed_bytes t σ Hw Hf (SigTextProofs.valid_sig_bounds σ (Hsigner _ _ Hσ))).
    apply graceful_ok.
  Qed.
End Commands.

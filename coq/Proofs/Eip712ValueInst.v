(** The primitives [Run/DC08.v] instantiates the model with ([Prim/Keccak.v], [Model/Num.v],
    [Model/Eip712Types.v]) satisfy the size and totality assumptions of [Props/C09.v] /
    [Props/C08v.v].  [prims_ranged] and [prims_denote] are not instantiated here: the number
    readers of [Model/Num.v] respect the ranges for well-formed number tokens only. *)
From Coq Require Import String.
From Coq Require Import List NArith ZArith Bool Lia PeanoNat.
From HDW Require Import Lib.Outcome Lib.Bytes Lib.Hex Prim.Keccak.
From HDW Require Import Model.Json Model.Eip712Kind Model.Domain Model.Num Model.Eip712Types Model.Eip712Values.
From HDW Require Import Spec.Eip712ValueSpec Proofs.Eip712TypeProofs Proofs.Eip712ValueProofs.
From HDW Require Proofs.NumProofs.
Import ListNotations.
Local Open Scope outcome_scope.

Definition real_prims : prims := {|
  p_keccak := keccak256;
  p_type_hash := Eip712Types.type_hash;
  p_u256 := permissive_u256;
  p_i256 := ethnum_permissive_i256;
  p_bytes := bytes_field;
  p_addr := address_field
|}.

Lemma real_prims_sized : prims_sized real_prims.
Proof.
  constructor; cbn [real_prims p_keccak p_type_hash p_addr].
  - apply keccak256_length.
  - intros tys T h H. unfold Eip712Types.type_hash in H. apply bind_ok in H as (s & _ & H).
    inversion H. apply keccak256_length.
  - intros j a H. apply NumProofs.address_sound in H. apply H.
Qed.

Lemma real_prims_total : prims_total real_prims.
Proof.
  constructor; cbn [real_prims p_type_hash p_u256 p_i256 p_bytes p_addr].
  - apply type_hash_total.
  - apply NumProofs.permissive_u256_total.
  - apply NumProofs.ethnum_permissive_i256_total.
  - apply NumProofs.bytes_total.
  - apply NumProofs.address_total.
Qed.

Lemma real_digest_eq j d ds mh :
  compute_p real_prims j = Ok (d, ds, mh) -> d = keccak256 ([0x19; 0x01]%N ++ ds ++ mh).
Proof. intros H. apply compute_ok in H as (b & _ & _ & _ & _ & ->). reflexivity. Qed.

Lemma real_total :
  (forall tys k j, graceful (encode_value_p real_prims tys k j)) /\
  (forall tys name obj, graceful (struct_hash_p real_prims tys name obj)) /\
  (forall j, graceful (compute_p real_prims j)).
Proof.
  exact (conj (encode_value_graceful _ real_prims_sized real_prims_total)
           (conj (struct_hash_graceful _ real_prims_sized real_prims_total)
              (compute_graceful _ real_prims_sized real_prims_total))).
Qed.

(** [Model/Eip712Values.v] at primitives [P : prims]: what each atomic arm accepts; the equations
    of [encode_value] / [struct_hash] / [compute_blob] with the buffer loops replaced by the list
    of words they write; word length, totality, and the rejections of C09. *)
From Coq Require Import String.
From Coq Require Import List NArith ZArith Bool Lia PeanoNat Permutation.
From HDW Require Import Lib.Outcome Lib.Bytes Model.Json Model.Eip712Kind Model.Domain Model.Eip712Values.
From HDW Require Import Spec.Eip712ValueSpec Proofs.DomainProofs.
Import ListNotations.
Open Scope N_scope.
Local Open Scope outcome_scope.

Lemma graceful_cases {A} (x : outcome A) : graceful x -> (exists a, x = Ok a) \/ x = Err.
Proof. apply Outcome.graceful_cases. Qed.

Lemma Forall2_impl_in_l {A B} (R1 R2 : A -> B -> Prop) l l' :
  (forall a b, In a l -> R1 a b -> R2 a b) -> Forall2 R1 l l' -> Forall2 R2 l l'.
Proof.
  intros H F. induction F as [|a b l l' Hab _ IH]; constructor.
  - apply H; [left; reflexivity|exact Hab].
  - apply IH. intros x y Hx. apply H. right; exact Hx.
Qed.

Lemma json_ind' (Q : json -> Prop) :
  Q JNull -> (forall b, Q (JBool b)) -> (forall n, Q (JU64 n)) -> (forall z, Q (JI64 z)) ->
  (forall m e, Q (JF64 m e)) -> (forall s, Q (JStr s)) ->
  (forall l, Forall Q l -> Q (JArr l)) ->
  (forall kvs, Forall (fun kv => Q (snd kv)) kvs -> Q (JObj kvs)) ->
  forall j, Q j.
Proof.
  intros H0 H1 H2 H3 H4 H5 H6 H7. fix IH 1. intros [ |b|n|z|m e|s|l|kvs].
  - exact H0.
  - apply H1.
  - apply H2.
  - apply H3.
  - apply H4.
  - apply H5.
  - apply H6. induction l as [|x r IHl]; constructor; [apply IH|exact IHl].
  - apply H7. induction kvs as [|kv r IHl]; constructor; [apply IH|exact IHl].
Qed.

(** * slices and [copy_at] *)

Lemma skipn_exact {A} (a b : list A) n : length a = n -> skipn n (a ++ b) = b.
Proof. apply skipn_app_len. Qed.

Lemma firstn_repeat {A} (x : A) n k : (n <= k)%nat -> firstn n (repeat x k) = repeat x n.
Proof.
  intros H. replace k with (n + (k - n))%nat by lia.
  rewrite repeat_app. apply firstn_app_len, repeat_length.
Qed.

Lemma copy_at_inv buffer off len src b :
  copy_at buffer off len src = Ok b ->
  (off + len <= length buffer)%nat /\ length src = len /\
  b = firstn off buffer ++ src ++ skipn (off + len) buffer.
Proof.
  unfold copy_at.
  destruct (Nat.ltb_spec (length buffer) off); [discriminate|].
  destruct (Nat.ltb_spec (length buffer - off) len); [discriminate|].
  destruct (Nat.eqb_spec (length src) len); [|discriminate].
  intros [= <-]. repeat split; lia.
Qed.

Lemma copy_at_not_err buffer off len src : copy_at buffer off len src <> Err.
Proof.
  unfold copy_at. destruct (Nat.ltb _ _); [discriminate|].
  destruct (Nat.ltb _ _); [discriminate|]. destruct (Nat.eqb _ _); discriminate.
Qed.

Lemma copy_at_length buffer off len src b :
  copy_at buffer off len src = Ok b -> length b = length buffer.
Proof.
  intros H. apply copy_at_inv in H as (H1 & H2 & ->).
  rewrite !app_length, firstn_length, skipn_length. lia.
Qed.

(** Every [copy_at] of the model writes at the frontier of a buffer whose rest is still zero:
    the written prefix [p] grows by the source, the zeros shrink. *)
Lemma copy_at_next p off len k w :
  length p = off -> length w = len ->
  copy_at (p ++ repeat 0 (len + k)) off len w = Ok ((p ++ w) ++ repeat 0 k).
Proof.
  intros <- <-. unfold copy_at. rewrite app_length, repeat_length, Nat.eqb_refl.
  destruct (Nat.ltb_spec (length p + (length w + k)) (length p)); [lia|].
  destruct (Nat.ltb_spec (length p + (length w + k) - length p) (length w)); [lia|].
  rewrite firstn_app_len by reflexivity. rewrite repeat_app, (app_assoc p (repeat 0 _)).
  rewrite skipn_app_len by (rewrite app_length, repeat_length; reflexivity).
  rewrite app_assoc. reflexivity.
Qed.

(** * the leading-zeros range tests *)

Lemma size_le_iff m n : N.size m <= n <-> m < 2 ^ n.
Proof.
  split; intros H.
  - eapply N.lt_le_trans; [apply N.size_gt|]. apply N.pow_le_mono_r; lia.
  - destruct (N.eq_dec m 0) as [->|Hm]; [change (N.size 0) with 0; lia|].
    rewrite N.size_log2 by assumption. apply N.le_succ_l. apply N.log2_lt_pow2; lia.
Qed.

(** [ensure!(value.leading_zeros() + n >= 256)] *)
Lemma uint_check v n :
  v < 2 ^ 256 -> ((256 <=? leading_zeros_256 v + n) = true <-> v < 2 ^ n).
Proof.
  intros Hv. apply size_le_iff in Hv. rewrite <- size_le_iff, N.leb_le.
  unfold leading_zeros_256. lia.
Qed.

Definition int_fits (n : N) (z : Z) : Prop :=
  1 <= n /\ (- 2 ^ Z.of_N (n - 1) <= z < 2 ^ Z.of_N (n - 1))%Z.

(** [ensure!(magnitude.leading_zeros() + n > 256)]; for [n = 0] ([int0] is not in the grammar)
    the test refuses every value *)
Lemma int_check z n :
  (- 2 ^ 255 <= z < 2 ^ 255)%Z ->
  ((256 <? leading_zeros_256 (Z.to_N (if (z <? 0)%Z then (- z - 1)%Z else z)) + n) = true
   <-> int_fits n z).
Proof.
  intros Hz. unfold int_fits.
  set (m := if (z <? 0)%Z then (- z - 1)%Z else z).
  assert (Hm : (0 <= m < 2 ^ 255)%Z) by (unfold m; destruct (Z.ltb_spec z 0); lia).
  assert (Hsize : forall q, N.size (Z.to_N m) <= q <-> (m < 2 ^ Z.of_N q)%Z).
  { intros q. rewrite size_le_iff, N2Z.inj_lt, N2Z.inj_pow, Z2N.id by lia. reflexivity. }
  pose proof (proj2 (Hsize 255) (proj2 Hm)) as HM. pose proof (Hsize (n - 1)) as Hiff.
  assert (HP : (0 < 2 ^ Z.of_N (n - 1))%Z) by (apply Z.pow_pos_nonneg; lia).
  set (p := (2 ^ Z.of_N (n - 1))%Z) in *.
  assert (Hmz : (m < p <-> - p <= z < p)%Z) by (unfold m; destruct (Z.ltb_spec z 0); lia).
  rewrite N.ltb_lt, <- Hmz, <- Hiff. unfold leading_zeros_256. lia.
Qed.

(** * [Map::remove] and [Map::get] *)

Lemma map_remove_obj_remove k d : map_remove k d = obj_remove k d.
Proof.
  induction d as [|[k' v] r IH]; [reflexivity|]. cbn. rewrite IH. reflexivity.
Qed.

Lemma map_remove_perm {V} k (d : list (text * V)) v d' :
  map_remove k d = Some (v, d') -> Permutation d ((k, v) :: d').
Proof.
  revert d'; induction d as [|[k0 x] r IH]; intros d'; [discriminate|]. cbn.
  destruct (list_eqb k k0) eqn:E.
  - intros [= <- <-]. apply list_eqb_spec in E as ->. reflexivity.
  - destruct (map_remove k r) as [[y r']|]; [|discriminate]. intros [= <- <-].
    rewrite (IH r' eq_refl). apply perm_swap.
Qed.

Lemma map_remove_fst k (d : list (text * json)) : option_map fst (map_remove k d) = obj_get k d.
Proof.
  induction d as [|[k0 x] r IH]; [reflexivity|]. cbn.
  destruct (list_eqb k k0); [reflexivity|]. rewrite <- IH.
  destruct (map_remove k r) as [[y r']|]; reflexivity.
Qed.

Lemma obj_get_in k (d : list (text * json)) v : obj_get k d = Some v -> In (k, v) d.
Proof.
  induction d as [|[k0 x] r IH]; [discriminate|]. cbn.
  destruct (list_eqb k k0) eqn:E.
  - intros [= ->]. apply list_eqb_spec in E as ->. left; reflexivity.
  - intros H; right; apply IH, H.
Qed.

Lemma obj_get_none k (d : list (text * json)) : obj_get k d = None <-> ~ In k (map fst d).
Proof.
  induction d as [|[k0 x] r IH]; [cbn; tauto|]. cbn.
  destruct (list_eqb k k0) eqn:E.
  - apply list_eqb_spec in E as ->. split; [discriminate|]. intros H; destruct H; left; reflexivity.
  - rewrite IH. split; [|tauto]. intros H [->|Hin]; [|tauto].
    rewrite list_eqb_refl in E; discriminate.
Qed.

Lemma obj_get_nodup k v (d : list (text * json)) :
  NoDup (map fst d) -> In (k, v) d -> obj_get k d = Some v.
Proof.
  induction d as [|[k0 x] r IH]; [contradiction|]. cbn. intros Hnd Hin.
  inversion Hnd as [|? ? Hk0 Hr]; subst.
  destruct Hin as [[= -> ->]|Hin]; [rewrite list_eqb_refl; reflexivity|].
  destruct (list_eqb k k0) eqn:E; [|apply IH; assumption].
  apply list_eqb_spec in E as ->. destruct Hk0. exact (in_map fst _ _ Hin).
Qed.

(** * the atomic arms *)

Lemma enc_uint_cases num n j v :
  num j = Ok v -> v < 2 ^ 256 ->
  v < 2 ^ n /\ enc_uint num n j = Ok (be_fixed 32 v) \/ 2 ^ n <= v /\ enc_uint num n j = Err.
Proof.
  intros Hv R. unfold enc_uint. rewrite Hv. cbn [bind].
  destruct (256 <=? leading_zeros_256 v + n) eqn:E; [left|right]; (split; [|reflexivity]).
  - apply uint_check; assumption.
  - apply N.le_ngt. intros Hlt. apply (uint_check v n R) in Hlt. congruence.
Qed.

Lemma enc_uint_ok num n j w :
  (forall v, num j = Ok v -> v < 2 ^ 256) ->
  enc_uint num n j = Ok w -> exists v, num j = Ok v /\ v < 2 ^ n /\ w = be_fixed 32 v.
Proof.
  intros R H. destruct (bind_ok _ _ _ H) as (v & Hv & _).
  destruct (enc_uint_cases num n j v Hv (R v Hv)) as [[Hlt E]|[_ E]]; rewrite E in H; [|discriminate].
  (* [congruence], not [injection]: the latter evaluates [be_fixed 32 v] *)
  exists v. repeat split; [exact Hv|exact Hlt|congruence].
Qed.

Lemma enc_int_cases num n j z :
  num j = Ok z -> (- 2 ^ 255 <= z < 2 ^ 255)%Z ->
  int_fits n z /\ enc_int num n j = Ok (be_fixed 32 (Z.to_N (z mod 2 ^ 256))) \/
  ~ int_fits n z /\ enc_int num n j = Err.
Proof.
  intros Hz R. unfold enc_int. rewrite Hz. cbn [bind].
  destruct (256 <? _ + n) eqn:E; [left|right]; (split; [|reflexivity]).
  - apply (int_check z n R); exact E.
  - intros F. apply (int_check z n R) in F. congruence.
Qed.

Lemma enc_int_ok num n j w :
  (forall z, num j = Ok z -> (- 2 ^ 255 <= z < 2 ^ 255)%Z) ->
  enc_int num n j = Ok w ->
  exists z, num j = Ok z /\ int_fits n z /\ w = be_fixed 32 (Z.to_N (z mod 2 ^ 256)).
Proof.
  intros R H. destruct (bind_ok _ _ _ H) as (z & Hz & _).
  destruct (enc_int_cases num n j z Hz (R z Hz)) as [[Hf E]|[_ E]]; rewrite E in H; [|discriminate].
  exists z. repeat split; [exact Hz|apply Hf..|congruence].
Qed.

Lemma enc_bytesN_cases keccak bytes_of n j b :
  bytes_of j = Ok b ->
  (N.of_nat (length b) = n /\ n <= 32) /\
    enc_bytes keccak bytes_of (Some n) j = Ok (b ++ repeat 0 (32 - length b)%nat) \/
  ~ (N.of_nat (length b) = n /\ n <= 32) /\ enc_bytes keccak bytes_of (Some n) j = Err.
Proof.
  intros Hb. unfold enc_bytes. rewrite Hb. cbn [bind].
  destruct (N.eqb_spec n (N.of_nat (length b))) as [->|Hn]; [|right; split; [lia|reflexivity]].
  destruct (N.ltb_spec 32 (N.of_nat (length b))) as [Hlt|Hle]; [right; split; [lia|reflexivity]|].
  left. split; [lia|]. rewrite Nat2N.id.
  replace 32%nat with (length b + (32 - length b))%nat at 1 by lia.
  apply (copy_at_next []); reflexivity.
Qed.

Lemma enc_bytesN_ok keccak bytes_of n j w :
  enc_bytes keccak bytes_of (Some n) j = Ok w ->
  exists b, bytes_of j = Ok b /\ N.of_nat (length b) = n /\ n <= 32 /\
            w = b ++ repeat 0 (32 - length b)%nat.
Proof.
  intros H. destruct (bind_ok _ _ _ H) as (b & Hb & _).
  destruct (enc_bytesN_cases keccak bytes_of n j b Hb) as [[[Hn Hle] E]|[_ E]];
    rewrite E in H; [|discriminate].
  injection H as <-. eauto.
Qed.

Lemma enc_bytes_dyn_ok keccak bytes_of j w :
  enc_bytes keccak bytes_of None j = Ok w <-> exists b, bytes_of j = Ok b /\ w = keccak b.
Proof.
  unfold enc_bytes. rewrite bind_ok_iff.
  split; intros (b & Hb & H); exists b; (split; [exact Hb|congruence]).
Qed.

(** any other length would panic in [copy_from_slice] *)
Lemma enc_address_eq addr j a :
  addr j = Ok a -> length a = 20%nat -> enc_address addr j = Ok (repeat 0 12%nat ++ a).
Proof.
  intros Ha Hl. unfold enc_address. rewrite Ha. cbn [bind].
  change (repeat 0 32%nat) with (repeat 0 12%nat ++ repeat 0 (20 + 0)%nat).
  rewrite (copy_at_next (repeat 0 12%nat) 12 20 0 a eq_refl Hl). apply f_equal, app_nil_r.
Qed.

Lemma enc_address_ok addr j w :
  enc_address addr j = Ok w ->
  exists a, addr j = Ok a /\ length a = 20%nat /\ w = repeat 0 12%nat ++ a.
Proof.
  intros H. destruct (bind_ok _ _ _ H) as (a & Ha & Hc). apply copy_at_inv in Hc as (_ & Hl & _).
  rewrite (enc_address_eq addr j a Ha Hl) in H. injection H as <-. eauto.
Qed.

Lemma enc_uint_graceful num n j : graceful (num j) -> graceful (enc_uint num n j).
Proof.
  intros Hg. apply graceful_bind; [exact Hg|]. intros v _.
  destruct (_ <=? _); [apply graceful_ok|apply graceful_err].
Qed.

Lemma enc_int_graceful num n j : graceful (num j) -> graceful (enc_int num n j).
Proof.
  intros Hg. apply graceful_bind; [exact Hg|]. intros z _. cbv zeta.
  destruct (_ <? _); [apply graceful_ok|apply graceful_err].
Qed.

Lemma enc_bytes_graceful keccak bytes_of n j :
  graceful (bytes_of j) -> graceful (enc_bytes keccak bytes_of n j).
Proof.
  intros Hg. destruct (graceful_cases _ Hg) as [[b Hb]|He].
  - destruct n as [n|]; [|unfold enc_bytes; rewrite Hb; apply graceful_ok].
    destruct (enc_bytesN_cases keccak bytes_of n j b Hb) as [[_ ->]|[_ ->]];
      [apply graceful_ok|apply graceful_err].
  - unfold enc_bytes. rewrite He. apply graceful_err.
Qed.

Lemma enc_address_graceful addr j :
  graceful (addr j) -> (forall a, addr j = Ok a -> length a = 20%nat) -> graceful (enc_address addr j).
Proof.
  intros Hg Hl. destruct (graceful_cases _ Hg) as [[a Ha]|He].
  - rewrite (enc_address_eq addr j a Ha (Hl a Ha)). apply graceful_ok.
  - unfold enc_address. rewrite He. apply graceful_err.
Qed.

Lemma enc_bool_ok j w : enc_bool j = Ok w <-> exists b, j = JBool b /\ w = be_fixed 32 (if b then 1 else 0).
Proof.
  split; [|intros ([|] & -> & ->); reflexivity].
  destruct j as [|b| | | | | |]; try discriminate. intros H. exists b. split; [reflexivity|].
  destruct b; cbn [enc_bool] in H; congruence.
Qed.

Lemma enc_string_ok keccak j w : enc_string keccak j = Ok w <-> exists s, j = JStr s /\ w = keccak (utf8 s).
Proof.
  split; [|intros (s & -> & ->); reflexivity].
  destruct j; cbn [enc_string]; intros [= <-]; eauto.
Qed.

(** * the member loop without the buffer: the words in member order and the remaining map *)

Fixpoint members_words {V} (enc : kind -> V -> outcome bytes) (ms : list member) (data : list (text * V))
  : outcome (list bytes * list (text * V)) :=
  match ms with
  | [] => Ok ([], data)
  | m :: r =>
      match map_remove (m_name m) data with
      | None => Err
      | Some (v, data') =>
          let* w := enc (m_kind m) v in
          let* p := members_words enc r data' in
          Ok (w :: fst p, snd p)
      end
  end.

Lemma members_loop_words {V} (enc : kind -> V -> outcome bytes) ms :
  (forall k v w, enc k v = Ok w -> length w = 32%nat) ->
  forall i p data, length p = ((i + 1) * 32)%nat ->
  members_loop enc ms i (p ++ repeat 0 (32 * length ms)) data =
  omap (fun r => (p ++ concat (fst r), snd r)) (members_words enc ms data).
Proof.
  intros Henc. induction ms as [|m r IH]; intros i p data Hp.
  - cbn. rewrite !app_nil_r. reflexivity.
  - cbn [members_loop members_words length].
    destruct (map_remove (m_name m) data) as [[v d']|]; [|reflexivity].
    destruct (enc (m_kind m) v) as [w| | |] eqn:Hv; try reflexivity. cbn [bind].
    pose proof (Henc _ _ _ Hv) as Hw.
    rewrite Nat.mul_succ_r, Nat.add_comm, (copy_at_next p _ 32 _ w Hp Hw). cbn [bind].
    rewrite IH by (rewrite app_length; lia).
    destruct (members_words enc r d') as [[ws rest]| | |]; try reflexivity.
    cbn [omap bind concat fst snd]. rewrite <- app_assoc. reflexivity.
Qed.

Lemma fill_words_map {A} (f : A -> outcome bytes) l :
  (forall x w, f x = Ok w -> length w = 32%nat) ->
  forall i p, length p = (i * 32)%nat ->
  fill_words (map f l) i (p ++ repeat 0 (32 * length l)) = omap (fun ws => p ++ concat ws) (omapM f l).
Proof.
  intros Hlen. induction l as [|x r IH]; intros i p Hp.
  - cbn. rewrite !app_nil_r. reflexivity.
  - cbn [map fill_words omapM length]. destruct (f x) as [w| | |] eqn:Hx; try reflexivity. cbn [bind].
    pose proof (Hlen x w Hx) as Hw.
    rewrite Nat.mul_succ_r, Nat.add_comm, (copy_at_next p _ 32 _ w Hp Hw). cbn [bind].
    rewrite IH by (rewrite app_length; lia).
    destruct (omapM f r); try reflexivity. cbn [omap bind concat]. rewrite <- app_assoc. reflexivity.
Qed.

Definition member_word {V} (enc : kind -> V -> outcome bytes) (data : list (text * V))
  (m : member) (w : bytes) : Prop :=
  exists v, In (m_name m, v) data /\ enc (m_kind m) v = Ok w.

Lemma members_words_ok {V} (enc : kind -> V -> outcome bytes) ms : forall data ws rest,
  members_words enc ms data = Ok (ws, rest) ->
  Forall2 (member_word enc data) ms ws /\ Permutation (map fst data) (map m_name ms ++ map fst rest).
Proof.
  induction ms as [|m r IH]; intros data ws rest H.
  - injection H as <- <-. split; [constructor|reflexivity].
  - cbn [members_words] in H. destruct (map_remove (m_name m) data) as [[v d']|] eqn:Er; [|discriminate].
    apply bind_ok in H as (w & Hw & H). apply bind_ok in H as ([ws' rest'] & Hr & [= <- <-]).
    apply map_remove_perm in Er. destruct (IH _ _ _ Hr) as [F2 Hp]. split.
    + constructor.
      * exists v. split; [exact (Permutation_in _ (Permutation_sym Er) (in_eq _ _))|exact Hw].
      * eapply Forall2_impl; [|exact F2]. intros a b (x & Hx & Hxb).
        exists x. split; [exact (Permutation_in _ (Permutation_sym Er) (in_cons _ _ _ Hx))|exact Hxb].
    + rewrite (Permutation_map fst Er). cbn [map app fst]. apply perm_skip, Hp.
Qed.

Lemma members_words_graceful {V} (enc : kind -> V -> outcome bytes) ms : forall data,
  (forall k key v, In (key, v) data -> graceful (enc k v)) ->
  graceful (members_words enc ms data).
Proof.
  induction ms as [|m r IH]; intros data Hg; [apply graceful_ok|].
  cbn [members_words]. destruct (map_remove (m_name m) data) as [[v d']|] eqn:Er; [|apply graceful_err].
  apply map_remove_perm in Er.
  apply graceful_bind; [eapply Hg, Permutation_in; [symmetry; exact Er|left; reflexivity]|]. intros w _.
  apply graceful_bind; [|intros; apply graceful_ok].
  apply IH. intros k key x Hx. eapply Hg, Permutation_in; [symmetry; exact Er|right; exact Hx].
Qed.

(** With distinct keys the value bound to a name is the one [Map::remove] finds, and removing one
    name does not disturb the others. *)
Lemma members_words_complete (enc : kind -> json -> outcome bytes) ms : forall data ws,
  NoDup (map fst data) -> NoDup (map m_name ms) ->
  Forall2 (member_word enc data) ms ws ->
  (forall key, In key (map fst data) -> In key (map m_name ms)) ->
  members_words enc ms data = Ok (ws, []).
Proof.
  induction ms as [|m r IH]; intros data ws Hnd Hnm F2 Hkeys.
  - inversion F2; subst. destruct data as [|[k v] d]; [reflexivity|]. destruct (Hkeys k). left; reflexivity.
  - inversion F2 as [|? w ? ws' (v & Hv & Hw) F2r]; subst. inversion Hnm as [|? ? Hn0 Hnr]; subst.
    cbn [members_words].
    pose proof (obj_get_nodup _ _ _ Hnd Hv) as Hget. rewrite <- map_remove_fst in Hget.
    destruct (map_remove (m_name m) data) as [[v' d']|] eqn:Er; [|discriminate]. injection Hget as ->.
    rewrite Hw. cbn [bind]. apply map_remove_perm in Er.
    pose proof (Permutation_map fst Er) as Hp. cbn [map fst] in Hp.
    apply (Permutation_NoDup Hp) in Hnd. inversion Hnd as [|? ? Hnot Hnd']; subst.
    rewrite (IH d' ws'); [reflexivity|exact Hnd'|exact Hnr| |].
    + eapply Forall2_impl_in_l; [|exact F2r]. intros a b Ha (x & Hx & Hxb). exists x. split; [|exact Hxb].
      destruct (Permutation_in _ Er Hx) as [[= Heq _]|Hx']; [|exact Hx'].
      destruct Hn0. rewrite Heq. exact (in_map m_name _ _ Ha).
    + intros key Hin. destruct (Hkeys key) as [<-|Hd]; [|contradiction|exact Hd].
      exact (Permutation_in _ (Permutation_sym Hp) (or_intror Hin)).
Qed.

Definition mapv {V W} (f : V -> W) (d : list (text * V)) : list (text * W) :=
  map (fun kv => (fst kv, f (snd kv))) d.

Lemma map_remove_mapv {V W} (f : V -> W) k d :
  map_remove k (mapv f d) =
  match map_remove k d with Some (v, d') => Some (f v, mapv f d') | None => None end.
Proof.
  induction d as [|[k0 x] r IH]; [reflexivity|]. cbn.
  destruct (list_eqb k k0); [reflexivity|].
  unfold mapv in IH. rewrite IH. destruct (map_remove k r) as [[y r']|]; reflexivity.
Qed.

Lemma members_loop_mapv {V W} (f : V -> W) (enc : kind -> W -> outcome bytes) ms : forall i buffer d,
  members_loop enc ms i buffer (mapv f d) =
  omap (fun p => (fst p, mapv f (snd p))) (members_loop (fun k v => enc k (f v)) ms i buffer d).
Proof.
  induction ms as [|m r IH]; intros i buffer d; [reflexivity|].
  cbn [members_loop]. rewrite map_remove_mapv.
  destruct (map_remove (m_name m) d) as [[v d']|]; [|reflexivity].
  destruct (enc (m_kind m) (f v)); try reflexivity. cbn [bind].
  destruct (copy_at buffer ((i + 1) * 32) 32 a); try reflexivity. cbn [bind].
  apply IH.
Qed.

(** * reading the document *)

Lemma str_field_graceful key kvs : graceful (str_field key kvs).
Proof. unfold str_field. destruct (obj_get key kvs) as [[]|]; split; discriminate. Qed.

Lemma member_of_json_graceful j : graceful (member_of_json j).
Proof.
  destruct j as [ | | | | | |l|kvs]; try apply graceful_err.
  - destruct l as [|x l]; [apply graceful_err|]. destruct x; try apply graceful_err.
    destruct l as [|y l]; [apply graceful_err|]. destruct y; try apply graceful_err.
    destruct l; [apply graceful_ok|apply graceful_err].
  - cbn [member_of_json]. apply graceful_bind; [apply str_field_graceful|]. intros name _.
    apply graceful_bind; [apply str_field_graceful|]. intros; apply graceful_ok.
Qed.

Lemma types_of_json_graceful j : graceful (types_of_json j).
Proof.
  destruct j; try apply graceful_err. cbn [types_of_json]. apply omapM_graceful. intros [k v] _.
  apply graceful_bind; [|intros; apply graceful_ok]. cbn [snd].
  destruct v; try apply graceful_err. cbn [members_of_json]. apply omapM_graceful.
  intros; apply member_of_json_graceful.
Qed.

Lemma blob_of_fields_graceful t p d m : graceful (blob_of_fields t p d m).
Proof.
  unfold blob_of_fields. apply graceful_bind; [apply types_of_json_graceful|]. intros tys _.
  apply graceful_bind; [destruct p; split; discriminate|]. intros pr _.
  apply graceful_bind; [destruct d; split; discriminate|]. intros dm _.
  apply graceful_bind; [destruct m; split; discriminate|]. intros; apply graceful_ok.
Qed.

Lemma blob_of_json_graceful j : graceful (blob_of_json j).
Proof.
  destruct j as [ | | | | | |l|kvs]; try apply graceful_err.
  - destruct l as [|t [|p [|d [|m [|? ?]]]]]; try apply graceful_err. apply blob_of_fields_graceful.
  - cbn [blob_of_json].
    destruct (obj_get _ kvs); [|apply graceful_err]. destruct (obj_get _ kvs); [|apply graceful_err].
    destruct (obj_get _ kvs); [|apply graceful_err]. destruct (obj_get _ kvs); [|apply graceful_err].
    apply blob_of_fields_graceful.
Qed.

(** * [encode_value], [struct_hash], [compute] *)

Section Values.

Variable P : prims.

Notation ev := (encode_value_p P).
Notation sh := (struct_hash_p P).
Notation shw V enc := (@struct_hash_with (p_keccak P) (p_type_hash P) V enc) (only parsing).

Lemma struct_hash_with_mapv {V W} (f : V -> W) (enc : kind -> W -> outcome bytes) tys name d :
  shw W enc tys name (mapv f d) = shw V (fun k v => enc k (f v)) tys name d.
Proof.
  unfold struct_hash_with. destruct (types_get name tys) as [ms|]; [|reflexivity].
  destruct (p_type_hash P tys name); try reflexivity. cbn [bind].
  destruct (copy_at _ 0 32 a); try reflexivity. cbn [bind].
  rewrite members_loop_mapv.
  destruct (members_loop _ ms 0 a0 d) as [[b rest]| | |]; try reflexivity. cbn.
  destruct rest; reflexivity.
Qed.

(** the code's mutual recursion: the struct arm of [encode_value] is [struct_hash] *)
Lemma encode_value_struct tys name kvs : ev tys (KStruct name) (JObj kvs) = sh tys name kvs.
Proof.
  exact (struct_hash_with_mapv (encode_value_rec (p_keccak P) (p_type_hash P) (p_u256 P) (p_i256 P)
           (p_bytes P) (p_addr P) tys) (fun k f => f k) tys name kvs).
Qed.

Definition size_ok (size : option N) (l : list json) : bool :=
  match size with Some size => N.of_nat (length l) =? size | None => true end.

Lemma size_ok_iff size l :
  size_ok size l = true <-> match size with Some s => N.of_nat (length l) = s | None => True end.
Proof. destruct size; cbn [size_ok]; [apply N.eqb_eq|tauto]. Qed.

Lemma encode_value_eq tys k j :
  ev tys k j =
  match k with
  | KBytes n => enc_bytes (p_keccak P) (p_bytes P) n j
  | KUint n => enc_uint (p_u256 P) n j
  | KInt n => enc_int (p_i256 P) n j
  | KBool => enc_bool j
  | KAddress => enc_address (p_addr P) j
  | KString => enc_string (p_keccak P) j
  | KStruct name => match j with JObj kvs => sh tys name kvs | _ => Err end
  | KArray inner size =>
      match j with
      | JArr l =>
          if size_ok size l
          then omap (p_keccak P) (fill_words (map (ev tys inner) l) 0 (repeat 0 (32 * length l)%nat))
          else Err
      | _ => Err
      end
  end.
Proof.
  (* computation, except for [JObj] at [KStruct]: [encode_value_struct] *)
  destruct j; try reflexivity. destruct k; try reflexivity. apply encode_value_struct.
Qed.

Lemma array_size_reject tys k n l :
  N.of_nat (length l) <> n -> ev tys (KArray k (Some n)) (JArr l) = Err.
Proof.
  intros H. rewrite encode_value_eq.
  destruct (size_ok (Some n) l) eqn:E; [apply size_ok_iff in E; contradiction|reflexivity].
Qed.

Lemma encode_value_err tys k j :
  match k with
  | KBytes _ => p_bytes P j = Err
  | KUint _ => p_u256 P j = Err
  | KInt _ => p_i256 P j = Err
  | KBool => forall b, j <> JBool b
  | KAddress => p_addr P j = Err
  | KString => forall s, j <> JStr s
  | KStruct _ => forall kvs, j <> JObj kvs
  | KArray _ _ => forall l, j <> JArr l
  end -> ev tys k j = Err.
Proof.
  rewrite encode_value_eq. destruct k; intros H.
  1-3, 5: unfold enc_bytes, enc_uint, enc_int, enc_address; rewrite H; reflexivity.
  all: destruct j; try reflexivity; destruct (H _ eq_refl).
Qed.

Lemma struct_hash_no_type tys name :
  types_get name tys = None \/ p_type_hash P tys name = Err ->
  (forall obj, sh tys name obj = Err) /\ (forall j, ev tys (KStruct name) j = Err).
Proof.
  intros H. assert (E : forall obj, sh tys name obj = Err).
  { intros obj. unfold struct_hash_p, struct_hash, struct_hash_with.
    destruct (types_get name tys); [|reflexivity].
    destruct H as [H|H]; [discriminate|rewrite H; reflexivity]. }
  split; [exact E|]. intros j. rewrite encode_value_eq. destruct j; try reflexivity. apply E.
Qed.

Lemma blob_buffer {A} (f : bytes -> outcome A) ds mh :
  length ds = 32%nat -> length mh = 32%nat ->
  (let* buffer := copy_at (repeat 0 66%nat) 0 2 [0x19; 0x01] in
   let* buffer := copy_at buffer 2 32 ds in
   let* buffer := copy_at buffer 34 32 mh in
   f buffer) = f ([0x19; 0x01] ++ ds ++ mh).
Proof.
  intros Hd Hm. change (repeat 0 66%nat) with ([] ++ repeat 0 (2 + (32 + (32 + 0)))%nat).
  rewrite (copy_at_next [] 0 2 _ [0x19; 0x01] eq_refl eq_refl). cbn [bind].
  rewrite (copy_at_next ([] ++ [0x19; 0x01]) 2 32 _ ds eq_refl Hd). cbn [bind].
  rewrite (copy_at_next (([] ++ [0x19; 0x01]) ++ ds) 34 32 0 mh (f_equal (Nat.add 2) Hd) Hm).
  cbn [bind app repeat].
  rewrite app_nil_r. reflexivity.
Qed.

Lemma compute_ok j d ds mh :
  compute_p P j = Ok (d, ds, mh) ->
  exists b, blob_of_json j = Ok b /\
    verify_domain_type (b_types b) = Ok tt /\
    sh (b_types b) (s2l "EIP712Domain") (b_domain b) = Ok ds /\
    sh (b_types b) (b_primary b) (b_message b) = Ok mh /\
    d = p_keccak P ([0x19; 0x01] ++ ds ++ mh).
Proof.
  intros H. apply bind_ok in H as (b & Hb & H). exists b. split; [exact Hb|].
  apply bind_ok in H as ([] & Hv & H). apply bind_ok in H as (ds' & Hds & H).
  apply bind_ok in H as (mh' & Hmh & H).
  (* the copies themselves check that the two hashes are 32 bytes long *)
  assert (Hl : length ds' = 32%nat /\ length mh' = 32%nat).
  { apply bind_ok in H as (b1 & _ & H'). apply bind_ok in H' as (b2 & H2 & H').
    apply bind_ok in H' as (b3 & H3 & _).
    apply copy_at_inv in H2 as (_ & L2 & _), H3 as (_ & L3 & _). split; assumption. }
  rewrite (blob_buffer _ ds' mh' (proj1 Hl) (proj2 Hl)) in H. injection H as <- <- <-. auto.
Qed.

(* Up to here nothing is assumed of [P].  Below: [p_keccak] and [p_type_hash] return 32 bytes. *)
Hypothesis Hsized : prims_sized P.

Lemma struct_hash_with_keccak {V} (enc : kind -> V -> outcome bytes) tys name d w :
  shw V enc tys name d = Ok w -> exists b, w = p_keccak P b.
Proof.
  unfold struct_hash_with. destruct (types_get name tys); [|discriminate].
  intros H. apply bind_ok in H as (th & _ & H). apply bind_ok in H as (b & _ & H).
  apply bind_ok in H as ([b' rest] & _ & H). destruct rest; [|discriminate].
  injection H as <-. eauto.
Qed.

Lemma struct_hash_length tys name obj w : sh tys name obj = Ok w -> length w = 32%nat.
Proof. intros H. apply struct_hash_with_keccak in H as (b & ->). apply Hsized. Qed.

Lemma encode_value_length tys k j w : ev tys k j = Ok w -> length w = 32%nat.
Proof.
  rewrite encode_value_eq. destruct k as [[n|]|n|n| | | |name|inner size]; intros H.
  - apply enc_bytesN_ok in H as (b & _ & Hl & Hle & ->). rewrite app_length, repeat_length. lia.
  - apply enc_bytes_dyn_ok in H as (b & _ & ->). apply Hsized.
  - apply bind_ok in H as (v & _ & H). destruct (_ <=? _); [|discriminate].
    replace w with (be_fixed 32 v) by congruence. apply be_fixed_length.
  - apply bind_ok in H as (z & _ & H). cbv zeta in H. destruct (_ <? _); [|discriminate].
    replace w with (be_fixed 32 (Z.to_N (z mod 2 ^ 256))) by congruence. apply be_fixed_length.
  - apply enc_bool_ok in H as (b & _ & ->). apply be_fixed_length.
  - apply enc_address_ok in H as (a & _ & Hl & ->). rewrite app_length, repeat_length, Hl. reflexivity.
  - apply enc_string_ok in H as (s & _ & ->). apply Hsized.
  - destruct j; try discriminate. apply struct_hash_length in H. exact H.
  - destruct j; try discriminate. destruct (size_ok size l); [|discriminate].
    apply omap_ok in H as (b & _ & ->). apply Hsized.
Qed.

Lemma encode_value_array tys k s l :
  ev tys (KArray k s) (JArr l) =
  if size_ok s l then omap (fun ws => p_keccak P (concat ws)) (omapM (ev tys k) l) else Err.
Proof.
  rewrite encode_value_eq. destruct (size_ok s l); [|reflexivity].
  rewrite (fill_words_map (ev tys k) l (encode_value_length tys k) 0 [] eq_refl
           : fill_words _ 0 (repeat 0 _) = _).
  destruct (omapM (ev tys k) l); reflexivity.
Qed.

Lemma struct_hash_eq tys name obj :
  sh tys name obj =
  match types_get name tys with
  | None => Err
  | Some ms =>
      let* th := p_type_hash P tys name in
      let* r := members_words (ev tys) ms obj in
      match snd r with
      | [] => Ok (p_keccak P (th ++ concat (fst r)))
      | _ :: _ => Err
      end
  end.
Proof.
  change (sh tys name obj) with (shw json (ev tys) tys name obj). unfold struct_hash_with.
  destruct (types_get name tys) as [ms|]; [|reflexivity].
  destruct (p_type_hash P tys name) as [th| | |] eqn:Hth; try reflexivity. cbn [bind].
  pose proof (type_hash_length P Hsized _ _ _ Hth) as Hl.
  replace (32 * (1 + length ms))%nat with (32 + 32 * length ms)%nat by lia.
  rewrite (copy_at_next [] 0 32 _ th eq_refl Hl : copy_at (repeat 0 _) 0 32 th = _). cbn [bind app].
  rewrite (members_loop_words _ ms (encode_value_length tys) 0 th obj Hl).
  destruct (members_words _ ms obj) as [[ws rest]| | |]; reflexivity.
Qed.

Lemma struct_hash_ok_inv tys name obj w :
  sh tys name obj = Ok w ->
  exists ms th ws, types_get name tys = Some ms /\ p_type_hash P tys name = Ok th /\
    members_words (ev tys) ms obj = Ok (ws, []) /\ w = p_keccak P (th ++ concat ws).
Proof.
  rewrite struct_hash_eq. destruct (types_get name tys) as [ms|]; [|discriminate].
  intros H. apply bind_ok in H as (th & Hth & H). apply bind_ok in H as ([ws rest] & Hm & H).
  cbn [fst snd] in H. destruct rest; [|discriminate]. injection H as <-. exists ms, th, ws. auto.
Qed.

Notation cb := (compute_blob (p_keccak P) (p_type_hash P) (p_u256 P) (p_i256 P) (p_bytes P) (p_addr P)).

Lemma compute_blob_eq b :
  cb b =
  let* _ := verify_domain_type (b_types b) in
  let* ds := sh (b_types b) (s2l "EIP712Domain") (b_domain b) in
  let* mh := sh (b_types b) (b_primary b) (b_message b) in
  Ok (p_keccak P ([0x19; 0x01] ++ ds ++ mh), ds, mh).
Proof.
  unfold compute_blob, struct_hash_p.
  destruct (verify_domain_type (b_types b)); try reflexivity. cbn [bind].
  destruct (struct_hash _ _ _ _ _ _ _ (s2l "EIP712Domain") _) as [ds| | |] eqn:Hds; try reflexivity.
  cbn [bind].
  destruct (struct_hash _ _ _ _ _ _ _ (b_primary b) _) as [mh| | |] eqn:Hmh; try reflexivity.
  cbn [bind]. apply blob_buffer; eapply struct_hash_length; eassumption.
Qed.

(* Below, in addition: the leaf parsers and [p_type_hash] end in a value or an ordinary error. *)
Hypothesis Htotal : prims_total P.

Lemma struct_hash_graceful_with tys name obj :
  (forall k key v, In (key, v) obj -> graceful (ev tys k v)) -> graceful (sh tys name obj).
Proof.
  intros Hg. rewrite struct_hash_eq. destruct (types_get name tys) as [ms|]; [|apply graceful_err].
  apply graceful_bind; [apply Htotal|]. intros th _.
  apply graceful_bind; [apply members_words_graceful; exact Hg|]. intros [ws rest] _.
  cbn [snd]. destruct rest; [apply graceful_ok|apply graceful_err].
Qed.

Lemma encode_value_graceful_step tys k j :
  (forall kvs, j = JObj kvs -> forall k' key v, In (key, v) kvs -> graceful (ev tys k' v)) ->
  (forall l, j = JArr l -> forall k' x, In x l -> graceful (ev tys k' x)) ->
  graceful (ev tys k j).
Proof.
  intros Ho Ha. destruct k as [n|n|n| | | |name|inner size].
  1-7: rewrite encode_value_eq.
  - apply enc_bytes_graceful, Htotal.
  - apply enc_uint_graceful, Htotal.
  - apply enc_int_graceful, Htotal.
  - destruct j as [|[|]| | | | | |]; split; discriminate.
  - apply enc_address_graceful; [apply Htotal|apply Hsized].
  - destruct j; split; discriminate.
  - destruct j; try apply graceful_err. apply struct_hash_graceful_with. exact (Ho kvs eq_refl).
  - destruct j; try (rewrite encode_value_eq; apply graceful_err).
    rewrite encode_value_array. destruct (size_ok size l); [|apply graceful_err].
    apply graceful_omap, omapM_graceful. exact (Ha l eq_refl inner).
Qed.

Lemma encode_value_graceful tys k j : graceful (ev tys k j).
Proof.
  revert k. induction j as [ |b|n|z|m e|s|l IHl|kvs IHk] using json_ind'; intros k;
    apply encode_value_graceful_step; try discriminate.
  - intros l' [= <-] k' x Hx. exact (proj1 (Forall_forall _ _) IHl x Hx k').
  - intros kvs' [= <-] k' key v Hin. exact (proj1 (Forall_forall _ _) IHk (key, v) Hin k').
Qed.

Lemma struct_hash_graceful tys name obj : graceful (sh tys name obj).
Proof. apply struct_hash_graceful_with. intros; apply encode_value_graceful. Qed.

Lemma compute_graceful j : graceful (compute_p P j).
Proof.
  apply graceful_bind; [apply blob_of_json_graceful|]. intros b _. rewrite compute_blob_eq.
  apply graceful_bind; [apply verify_domain_type_total|]. intros _ _.
  apply graceful_bind; [apply struct_hash_graceful|]. intros ds _.
  apply graceful_bind; [apply struct_hash_graceful|]. intros; apply graceful_ok.
Qed.

(** * rejection (C09) *)

Lemma struct_hash_err tys name ms obj :
  types_get name tys = Some ms -> (forall ws, members_words (ev tys) ms obj <> Ok (ws, [])) ->
  sh tys name obj = Err.
Proof.
  intros Ht Hno. apply graceful_not_ok_err; [apply struct_hash_graceful|].
  intros w H. apply struct_hash_ok_inv in H as (ms' & th & ws & Ht' & _ & Hm & _).
  rewrite Ht in Ht'. injection Ht' as <-. exact (Hno ws Hm).
Qed.

(** the keys of an accepted object are the member names, each once *)
Lemma struct_hash_keys tys name ms obj :
  types_get name tys = Some ms -> ~ Permutation (map fst obj) (map m_name ms) -> sh tys name obj = Err.
Proof.
  intros Ht Hno. apply (struct_hash_err tys name ms obj Ht). intros ws Hm.
  apply members_words_ok in Hm as [_ Hm]. rewrite app_nil_r in Hm. exact (Hno Hm).
Qed.

Lemma struct_hash_member_err tys name ms obj m x :
  NoDup (map fst obj) -> types_get name tys = Some ms -> In m ms ->
  obj_get (m_name m) obj = Some x -> ev tys (m_kind m) x = Err ->
  sh tys name obj = Err /\ ev tys (KStruct name) (JObj obj) = Err.
Proof.
  intros Hnd Ht Hin Hx Herr. rewrite encode_value_struct.
  assert (sh tys name obj = Err); [|split; assumption].
  apply (struct_hash_err tys name ms obj Ht). intros ws Hm.
  apply members_words_ok in Hm as [Hm _].
  apply (Forall2_Forall_l _ (fun m => exists w, member_word (ev tys) obj m w)) in Hm; [|eauto].
  rewrite Forall_forall in Hm. destruct (Hm m Hin) as (w & v & Hv & Hw).
  rewrite (obj_get_nodup _ _ _ Hnd Hv) in Hx. congruence.
Qed.

Lemma array_element_err tys k s l x :
  In x l -> ev tys k x = Err -> ev tys (KArray k s) (JArr l) = Err.
Proof.
  intros Hin Herr. apply graceful_not_ok_err; [apply encode_value_graceful|].
  intros w. rewrite encode_value_array. destruct (size_ok s l); [|discriminate].
  intros H. apply omap_ok in H as (ws & Hws & _).
  destruct (omapM_ok_in _ _ _ _ Hws Hin) as [y Hy]. congruence.
Qed.

End Values.

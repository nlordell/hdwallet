(** C06 / C13, the JSON side: [tx_of_json] is the field-wise parse of the members of the object,
    selects the kind by key presence, never panics, and yields field values in range. *)
From Coq Require Import List NArith Bool.
From HDW Require Import Lib.Outcome Lib.Bytes Model.Json Model.Num Model.Tx Spec.TxSpec.
From HDW Require Proofs.NumProofs.
Import ListNotations.
Open Scope N_scope.
Open Scope outcome_scope.

Lemma obj_get_Forall (P : json -> Prop) k kvs j :
  Forall (fun kv => P (snd kv)) kvs -> obj_get k kvs = Some j -> P j.
Proof.
  induction 1 as [|[k' v] r Hv _ IH]; cbn [obj_get]; [discriminate|].
  destruct (list_eqb k k'); [intros [= <-]; exact Hv|exact IH].
Qed.

(** peel the binds off [H : (let* a := x in ..) = Ok t] *)
Ltac bind_inv H :=
  repeat match type of H with
         | bind ?x ?f = Ok _ =>
             let a := fresh "a" in
             let Ha := fresh "Ha" in
             apply bind_ok in H; destruct H as [a [Ha H]]
         end.

(** * The three struct deserialisers are exactly the field-wise parses *)

Lemma legacy_of_json_iff kvs t : legacy_of_json kvs = Ok t <-> legacy_parsed kvs t.
Proof.
  unfold legacy_of_json, legacy_parsed. split.
  - intros H. bind_inv H. injection H as <-. cbn. repeat split; assumption.
  - intros (-> & -> & -> & -> & -> & -> & ->). destruct t; reflexivity.
Qed.

Lemma eip2930_of_json_iff kvs t : eip2930_of_json kvs = Ok t <-> eip2930_parsed kvs t.
Proof.
  unfold eip2930_of_json, eip2930_parsed. split.
  - intros H. bind_inv H. injection H as <-. cbn. repeat split; assumption.
  - intros (-> & -> & -> & -> & -> & -> & -> & ->). destruct t; reflexivity.
Qed.

Lemma eip1559_of_json_iff kvs t : eip1559_of_json kvs = Ok t <-> eip1559_parsed kvs t.
Proof.
  unfold eip1559_of_json, eip1559_parsed. split.
  - intros H. bind_inv H. injection H as <-. cbn. repeat split; assumption.
  - intros (-> & -> & -> & -> & -> & -> & -> & -> & ->). destruct t; reflexivity.
Qed.

Lemma tx_of_json_obj kvs :
  tx_of_json (JObj kvs) =
  match kind_of_keys kvs with
  | KEip1559 => omap Eip1559 (eip1559_of_json kvs)
  | KEip2930 => omap Eip2930 (eip2930_of_json kvs)
  | KLegacy => omap Legacy (legacy_of_json kvs)
  end.
Proof.
  unfold tx_of_json, kind_of_keys, fee_market_keys.
  destruct (obj_has k_max_priority_fee_per_gas kvs || obj_has k_max_fee_per_gas kvs); [reflexivity|].
  destruct (obj_has k_access_list kvs); reflexivity.
Qed.

Lemma tx_of_json_is_obj j t : tx_of_json j = Ok t -> exists kvs, j = JObj kvs.
Proof. destruct j; try discriminate. eauto. Qed.

Theorem tx_of_json_iff kvs t :
  tx_of_json (JObj kvs) = Ok t <-> kind t = kind_of_keys kvs /\ tx_parsed kvs t.
Proof.
  rewrite tx_of_json_obj. split.
  - intros H. destruct (kind_of_keys kvs); apply omap_ok in H as (a & Ha & ->);
      (split; [reflexivity|]);
      [apply legacy_of_json_iff|apply eip2930_of_json_iff|apply eip1559_of_json_iff]; exact Ha.
  - intros [<- Hp]. destruct t as [t|t|t]; cbn [kind tx_parsed] in *;
      [apply legacy_of_json_iff in Hp|apply eip2930_of_json_iff in Hp|apply eip1559_of_json_iff in Hp];
      rewrite Hp; reflexivity.
Qed.

Lemma req_bind_ok {A} k kvs (f : json -> outcome A) v :
  (let* j := req_field k kvs in f j) = Ok v <-> exists j, obj_get k kvs = Some j /\ f j = Ok v.
Proof.
  unfold req_field. destruct (obj_get k kvs) as [j|]; cbn [of_option bind].
  - split; [eauto|]. intros (j' & [= <-] & H). exact H.
  - split; [discriminate|]. intros (j & Hj & _). discriminate.
Qed.

Lemma req_bind_graceful {A} k kvs (f : json -> outcome A) :
  (forall j, graceful (f j)) -> graceful (let* j := req_field k kvs in f j).
Proof. intros H. apply graceful_bind; [apply graceful_of_option|]. intros j _. apply H. Qed.

Lemma num_field_iff k kvs v :
  num_field k kvs = Ok v <-> exists j, obj_get k kvs = Some j /\ permissive_u256 j = Ok v.
Proof. apply req_bind_ok. Qed.

Lemma data_field_iff kvs b :
  data_field kvs = Ok b <-> exists j, obj_get k_data kvs = Some j /\ bytes_field j = Ok b.
Proof. apply req_bind_ok. Qed.

Lemma to_field_some kvs a :
  to_field kvs = Ok (Some a) -> exists j, obj_get k_to kvs = Some j /\ address_field j = Ok a.
Proof. apply NumProofs.opt_address_sound. Qed.

Lemma legacy_chain_some kvs c :
  legacy_chain_field kvs = Ok (Some c) ->
  (exists j, obj_get k_chain_id kvs = Some j /\ permissive_u256 j = Ok c) /\ 2 * c + 36 < 2 ^ 256.
Proof.
  intros H. apply NumProofs.chainid_sound in H as [H Hc]. split; [|exact Hc].
  apply NumProofs.numopt_some, H.
Qed.

(** * No panic *)

Lemma num_field_graceful k kvs : graceful (num_field k kvs).
Proof. apply req_bind_graceful, NumProofs.permissive_u256_total. Qed.

Lemma data_field_graceful kvs : graceful (data_field kvs).
Proof. apply req_bind_graceful, NumProofs.bytes_total. Qed.

Lemma to_field_graceful kvs : graceful (to_field kvs).
Proof. apply NumProofs.opt_address_total. Qed.

Lemma legacy_chain_graceful kvs : graceful (legacy_chain_field kvs).
Proof. apply NumProofs.chainid_total. Qed.

Lemma slots_graceful j : graceful (slots_of_json j).
Proof.
  destruct j; try apply graceful_err. apply omapM_graceful.
  intros; apply NumProofs.bytearray_total.
Qed.

Lemma access_entry_graceful j : graceful (access_entry_of_json j).
Proof.
  destruct j as [| | | | | |l|]; try apply graceful_err.
  destruct l as [|a [|ks [|x r]]]; try apply graceful_err.
  apply graceful_bind; [apply NumProofs.address_total|]. intros a' _.
  apply graceful_bind; [apply slots_graceful|]. intros; apply graceful_ok.
Qed.

Lemma access_list_graceful j : graceful (access_list_of_json j).
Proof.
  destruct j; try apply graceful_err. apply omapM_graceful.
  intros; apply access_entry_graceful.
Qed.

Lemma access_list_req_graceful kvs : graceful (access_list_req_field kvs).
Proof. apply req_bind_graceful, access_list_graceful. Qed.

Lemma access_list_default_graceful kvs : graceful (access_list_default_field kvs).
Proof.
  unfold access_list_default_field. destruct (obj_get k_access_list kvs);
    [apply access_list_graceful|apply graceful_ok].
Qed.

#[local] Hint Resolve num_field_graceful data_field_graceful to_field_graceful
  legacy_chain_graceful access_list_req_graceful access_list_default_graceful : fields.

(** a struct deserialiser is a chain of binds of field parsers that ends in [Ok] *)
Ltac graceful_chain :=
  repeat (apply graceful_bind; [solve [auto with fields]|intros ? _]); apply graceful_ok.

Theorem tx_of_json_graceful j : graceful (tx_of_json j).
Proof.
  destruct j; try apply graceful_err. rewrite tx_of_json_obj.
  destruct (kind_of_keys kvs); apply graceful_omap;
    [unfold legacy_of_json|unfold eip2930_of_json|unfold eip1559_of_json]; graceful_chain.
Qed.

(** * Rejections and agreement of documents *)

Lemma parsed_fields_ok kvs t :
  tx_parsed kvs t ->
  Forall (fun k => exists v, num_field k kvs = Ok v) (numeric_keys (kind t))
  /\ (exists v, to_field kvs = Ok v)
  /\ (exists v, data_field kvs = Ok v)
  /\ (exists v, chain_field (kind t) kvs = Ok v)
  /\ (exists v, access_list_field (kind t) kvs = Ok v).
Proof.
  destruct t as [t|t|t]; cbn [tx_parsed kind numeric_keys chain_field access_list_field].
  - intros (H0 & H1 & H2 & H3 & H4 & H5 & H6). repeat econstructor; eauto.
  - intros (H0 & H1 & H2 & H3 & H4 & H5 & H6 & H7). rewrite H0. repeat econstructor; eauto.
  - intros (H0 & H1 & H2 & H3 & H4 & H5 & H6 & H7 & H8). rewrite H0. repeat econstructor; eauto.
Qed.

Theorem reject_field kvs : field_rejected kvs -> tx_of_json (JObj kvs) = Err.
Proof.
  intros Hrej. apply graceful_not_ok_err; [apply tx_of_json_graceful|]. intros t Ht.
  apply tx_of_json_iff in Ht as [Hk Hp]. unfold field_rejected in Hrej. rewrite <- Hk in Hrej.
  destruct (parsed_fields_ok kvs t Hp) as (Hnum & [? Hto] & [? Hdata] & [? Hchain] & [? Hal]).
  destruct Hrej as [(k & Hin & Hno)|[Hno|[Hno|[Hno|Hno]]]]; [|eapply Hno; eassumption..].
  rewrite Forall_forall in Hnum. destruct (Hnum k Hin) as [v Hv]. exact (Hno v Hv).
Qed.

Theorem reject_num kvs k :
  In k (numeric_keys (kind_of_keys kvs)) ->
  (forall j, obj_get k kvs = Some j -> permissive_u256 j = Err) -> tx_of_json (JObj kvs) = Err.
Proof.
  intros Hin Hno. apply reject_field. left. exists k. split; [exact Hin|].
  intros v Hv. apply num_field_iff in Hv as (j & Hj & Hv). rewrite (Hno j Hj) in Hv. discriminate.
Qed.

Theorem same_fields_same_tx kvs1 kvs2 :
  same_fields kvs1 kvs2 -> tx_of_json (JObj kvs1) = tx_of_json (JObj kvs2).
Proof.
  intros (Hk & Hnum & Hto & Hdata & Hchain & Hal).
  rewrite !tx_of_json_obj. rewrite <- Hk.
  destruct (kind_of_keys kvs1); cbn [numeric_keys chain_field access_list_field] in *.
  - unfold legacy_of_json. rewrite !Hnum, Hto, Hdata, Hchain by (cbn [In]; tauto). reflexivity.
  - unfold eip2930_of_json. rewrite !Hnum, Hto, Hdata, Hal by (cbn [In]; tauto). reflexivity.
  - unfold eip1559_of_json. rewrite !Hnum, Hto, Hdata, Hal by (cbn [In]; tauto). reflexivity.
Qed.

(** * Parsed values are in range *)

Lemma num_field_range kvs k v :
  doc_tokens_ok (JObj kvs) -> num_field k kvs = Ok v -> v < 2 ^ 256.
Proof.
  cbn [doc_tokens_ok]. intros Htok H. apply num_field_iff in H as (j & Hj & H).
  exact (proj2 (NumProofs.exact j v (obj_get_Forall _ _ _ _ Htok Hj) H)).
Qed.

Lemma to_field_wf kvs to : to_field kvs = Ok to -> wf_to to.
Proof.
  intros H. destruct to as [a|]; [|exact I]. apply to_field_some in H as (j & _ & H).
  apply NumProofs.address_sound in H as (HL & Hok & _). split; assumption.
Qed.

Lemma data_field_ok kvs b : data_field kvs = Ok b -> bytes_ok b.
Proof.
  intros H. apply data_field_iff in H as (j & _ & H). apply NumProofs.bytes_sound in H. apply H.
Qed.

Lemma legacy_chain_wf kvs c : legacy_chain_field kvs = Ok c -> wf_legacy_chain c.
Proof.
  intros H. destruct c as [c|]; [|exact I]. apply legacy_chain_some in H. apply H.
Qed.

Lemma slots_wf j (ks : list bytes) :
  slots_of_json j = Ok ks -> Forall (fun k : bytes => length k = 32%nat /\ bytes_ok k) ks.
Proof.
  destruct j as [| | | | | |l|]; try discriminate. intros H.
  apply (omapM_Forall _ _ _ _ H). intros x y Hxy.
  apply NumProofs.bytearray_sound in Hxy as [HL Hb]. split; [exact HL|].
  apply NumProofs.bytes_sound in Hb. apply Hb.
Qed.

Lemma access_entry_wf j e : access_entry_of_json j = Ok e -> wf_access_entry e.
Proof.
  destruct j as [| | | | | |l|]; try discriminate.
  destruct l as [|a [|ks [|x r]]]; try discriminate.
  cbn [access_entry_of_json]. intros H. bind_inv H. injection H as <-.
  apply NumProofs.address_sound in Ha as (HL & Hok & _).
  split; [split; assumption|]. eapply slots_wf. eassumption.
Qed.

Lemma access_list_wf j al : access_list_of_json j = Ok al -> wf_access_list al.
Proof.
  destruct j as [| | | | | |l|]; try discriminate. intros H.
  apply (omapM_Forall _ _ _ _ H). exact access_entry_wf.
Qed.

Lemma access_list_req_wf kvs al : access_list_req_field kvs = Ok al -> wf_access_list al.
Proof. intros H. apply req_bind_ok in H as (j & _ & H). apply (access_list_wf j al H). Qed.

Lemma access_list_default_wf kvs al : access_list_default_field kvs = Ok al -> wf_access_list al.
Proof.
  unfold access_list_default_field. destruct (obj_get k_access_list kvs) as [j|].
  - apply access_list_wf.
  - intros [= <-]. constructor.
Qed.

Theorem wf_parsed j t : doc_tokens_ok j -> tx_of_json j = Ok t -> wf_tx t.
Proof.
  intros Htok H. destruct (tx_of_json_is_obj j t H) as [kvs ->].
  apply tx_of_json_iff in H as [_ H].
  pose proof (fun k v => num_field_range kvs k v Htok) as R.
  destruct t as [t|t|t];
    cbv [tx_parsed legacy_parsed eip2930_parsed eip1559_parsed
         wf_tx wf_legacy wf_eip2930 wf_eip1559 u256] in *;
    decompose [and] H; repeat split;
    eauto using to_field_wf, data_field_ok, legacy_chain_wf, access_list_req_wf, access_list_default_wf.
Qed.

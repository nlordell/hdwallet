(** Proofs about [Model/Prefix.v] (property C18: prefix parser and matcher).

    The parser's loop over an indexed vector computes [chunks_val] of the digits; that value
    spells the digits again ([prefix_digits]), and the matcher compares exactly those digits
    with the hex spelling of the address ([matches2_digits]). *)
From Coq Require Import String.
From Coq Require Import List NArith Lia Bool PeanoNat.
From HDW Require Import Lib.Outcome Lib.Bytes Lib.Hex Model.Prefix.
Import ListNotations.
Open Scope N_scope.
Open Scope outcome_scope.

Lemma div2_SS n : Nat.div (S (S n)) 2 = S (Nat.div n 2).
Proof. apply (Nat.div_add_l 1 2 n). discriminate. Qed.

(** ** [parse_nibble] is [hex_val]; its [u8] arithmetic never panics *)

Lemma parse_nibble_hex_val c : parse_nibble c = of_option (hex_val c).
Proof.
  unfold parse_nibble, hex_val, u8_sub, u8_add.
  destruct ((48 <=? c) && (c <=? 57)) eqn:E1.
  { replace (c <? 48) with false by lia. reflexivity. }
  destruct ((97 <=? c) && (c <=? 102)) eqn:E2.
  { replace (c <? 97) with false by lia. cbn [bind].
    replace (c - 97 + 10 <? 256) with true by lia. cbn [of_option]. f_equal. lia. }
  destruct ((65 <=? c) && (c <=? 70)) eqn:E3.
  { replace (c <? 65) with false by lia. cbn [bind].
    replace (c - 65 + 10 <? 256) with true by lia. cbn [of_option]. f_equal. lia. }
  reflexivity.
Qed.

Lemma u8_byte a b : a < 16 -> b < 16 -> u8_add (u8_shl a 4) b = Ok (a * 16 + b).
Proof.
  intros Ha Hb. unfold u8_add, u8_shl. rewrite N.shiftl_mul_pow2. change (2 ^ 4) with 16.
  replace ((a * 16) mod 256) with (a * 16) by lia.
  replace (a * 16 + b <? 256) with true by lia. reflexivity.
Qed.

(** ** The loop with an indexed vector is a plain structural recursion *)

(** Whole bytes and the odd digit at the end, if all characters are hex digits. *)
Fixpoint chunks_val (s : bytes) : option (bytes * option N) :=
  match s with
  | [] => Some ([], None)
  | [ni] => match hex_val ni with Some n => Some ([], Some n) | None => None end
  | hi :: lo :: r =>
      match hex_val hi, hex_val lo, chunks_val r with
      | Some h, Some l, Some st => Some (h * 16 + l :: fst st, snd st)
      | _, _, _ => None
      end
  end.

Lemma vec_set_mid (pre post : bytes) z x :
  vec_set (pre ++ z :: post) (length pre) x = Ok (pre ++ x :: post).
Proof.
  unfold vec_set.
  replace (Nat.ltb (length pre) (length (pre ++ z :: post))) with true.
  2:{ symmetry. apply Nat.ltb_lt. rewrite app_length. cbn [length]. lia. }
  rewrite firstn_app, firstn_all, Nat.sub_diag. cbn [firstn]. rewrite app_nil_r.
  rewrite skipn_app. rewrite skipn_all2 by lia.
  replace (S (length pre) - length pre)%nat with 1%nat by lia. reflexivity.
Qed.

Lemma parse_loop_chunks s : forall pre,
  parse_loop (chunks2 s) (length pre) (pre ++ repeat 0 (Nat.div (length s) 2), None)
  = omap (fun st => (pre ++ fst st, snd st)) (of_option (chunks_val s)).
Proof.
  induction s as [| x | x y r IH] using list_ind2; intros pre.
  - reflexivity.
  - cbn [chunks2 parse_loop parse_step chunks_val fst snd]. rewrite parse_nibble_hex_val.
    destruct (hex_val x); reflexivity.
  - cbn [chunks2 parse_loop parse_step chunks_val fst snd]. rewrite !parse_nibble_hex_val.
    destruct (hex_val x) as [h|] eqn:Hx; [|reflexivity].
    destruct (hex_val y) as [l|] eqn:Hy; [|reflexivity].
    cbn [of_option bind]. rewrite u8_byte by (eapply hex_val_bound; eassumption).
    cbn [bind length]. rewrite div2_SS. cbn [repeat]. rewrite vec_set_mid. cbn [bind].
    pose proof (IH (pre ++ [h * 16 + l])) as IH'. rewrite last_length, <- app_assoc in IH'.
    cbn [app] in IH'. etransitivity; [exact IH'|]. destruct (chunks_val r) as [st|]; [|reflexivity].
    cbn [of_option omap bind fst snd]. rewrite <- app_assoc. reflexivity.
Qed.

Lemma parse_prefix_eq t :
  parse_prefix t =
  match strip_prefix (s2l "0x") t with
  | None => Err
  | Some s => omap (fun st => {| p_bytes := fst st; p_nibble := snd st |}) (of_option (chunks_val (utf8 s)))
  end.
Proof.
  unfold parse_prefix. destruct (strip_prefix (s2l "0x") t) as [s|]; [|reflexivity].
  cbv zeta. pose proof (parse_loop_chunks (utf8 s) []) as H. cbn [app length] in H.
  rewrite H. destruct (chunks_val (utf8 s)); reflexivity.
Qed.

Lemma all_hex_digits s : Forall is_hex_digit s <-> forallb is_hex s = true.
Proof. rewrite Forall_forall, forallb_forall. reflexivity. Qed.

(** The lower-case digits a parsed prefix stands for. *)
Definition prefix_digits (bs : bytes) (nib : option N) : list N :=
  hex_encode bs ++ match nib with Some n => [hex_digit n] | None => [] end.

(** Exactly the strings of hex digits have a value: [length / 2] bytes and a nibble when the
    length is odd, which spell the string. *)
Lemma chunks_val_spec s :
  if forallb is_hex s
  then exists bs nib, chunks_val s = Some (bs, nib)
         /\ map to_lower s = prefix_digits bs nib
         /\ bytes_ok bs
         /\ length bs = Nat.div (length s) 2
         /\ (nib = None <-> Nat.even (length s) = true)
         /\ (forall n, nib = Some n -> n < 16)
  else chunks_val s = None.
Proof.
  induction s as [| x | h l r IH] using list_ind2; cbn [chunks_val forallb].
  - exists [], None. repeat split; try constructor; discriminate.
  - unfold is_hex. destruct (hex_val x) as [n|] eqn:Hx; [|reflexivity].
    exists [], (Some n). split; [reflexivity|]. split; [|repeat split; try constructor; try discriminate].
    + cbn [map]. rewrite (hex_val_to_lower _ _ Hx). reflexivity.
    + intros n' [= <-]. eapply hex_val_bound, Hx.
  - unfold is_hex at 1 2. destruct (hex_val h) as [a|] eqn:Ha; [|reflexivity].
    destruct (hex_val l) as [b|] eqn:Hb; [|reflexivity]. cbn [andb].
    destruct (forallb is_hex r); [|rewrite IH; reflexivity].
    destruct IH as (bs & nib & -> & Hm & Hok & Hlen & Hev & Hn).
    pose proof (hex_val_bound _ _ Ha). pose proof (hex_val_bound _ _ Hb).
    exists (a * 16 + b :: bs), nib. cbn [fst snd]. split; [reflexivity|]. split; [|split; [|split; [|split]]].
    + unfold prefix_digits in *. cbn [map hex_encode app]. rewrite Hm.
      replace ((a * 16 + b) / 16) with a by lia. replace ((a * 16 + b) mod 16) with b by lia.
      rewrite (hex_val_to_lower _ _ Ha), (hex_val_to_lower _ _ Hb). reflexivity.
    + constructor; [lia|exact Hok].
    + cbn [length]. rewrite div2_SS, Hlen. reflexivity.
    + cbn [length]. rewrite Nat.even_succ_succ. exact Hev.
    + exact Hn.
Qed.

Lemma is_prefixb_spec p : forall l, is_prefixb p l = true <-> is_prefix p l.
Proof.
  unfold is_prefix. induction p as [|x p IH]; intros l.
  - cbn [is_prefixb]. split; [intros _; exists l; reflexivity|reflexivity].
  - destruct l as [|y l]; cbn [is_prefixb].
    + split; [discriminate|intros [r Hr]; discriminate].
    + rewrite andb_true_iff, N.eqb_eq, IH. split.
      * intros [-> [r ->]]. exists r. reflexivity.
      * intros [r Hr]. cbn [app] in Hr. inversion Hr; subst. split; [reflexivity|eauto].
Qed.

Lemma starts_with_spec a p : starts_with a p = true <-> is_prefix p a.
Proof.
  unfold starts_with, is_prefix. rewrite andb_true_iff, Nat.leb_le, list_eqb_spec. split.
  - intros [_ Hp]. exists (skipn (length p) a). rewrite Hp at 1. symmetry. apply firstn_skipn.
  - intros [r ->]. rewrite app_length. split; [lia|]. symmetry. apply firstn_app_len. reflexivity.
Qed.

Lemma starts_with_prefixb a p : starts_with a p = is_prefixb p a.
Proof. apply eq_true_iff_eq. rewrite starts_with_spec, is_prefixb_spec. reflexivity. Qed.

(** ** The matcher against the hex spelling *)

(** [Prefix::matches] on the two components. *)
Definition matches2 (bs : bytes) (nib : option N) (addr : bytes) : bool :=
  is_prefixb bs addr
  && match nib with
     | Some n => match nth_error addr (length bs) with
                 | Some last => N.shiftr last 4 =? n
                 | None => false
                 end
     | None => true
     end.

Lemma matches_matches2 p addr : matches p addr = matches2 (p_bytes p) (p_nibble p) addr.
Proof. unfold matches, matches2. rewrite starts_with_prefixb. reflexivity. Qed.

Lemma matches2_cons b bs nib a ar :
  matches2 (b :: bs) nib (a :: ar) = (b =? a) && matches2 bs nib ar.
Proof. unfold matches2. cbn [is_prefixb length nth_error]. rewrite andb_assoc. reflexivity. Qed.

(** Comparing whole bytes and then the high nibble of the next one is comparing digits. *)
Lemma matches2_digits bs nib addr :
  bytes_ok bs -> (forall n, nib = Some n -> n < 16) -> bytes_ok addr ->
  matches2 bs nib addr = is_prefixb (prefix_digits bs nib) (hex_encode addr).
Proof.
  intros Hbs Hn. revert addr. induction Hbs as [|b bs Hb _ IH]; intros addr Ha.
  - unfold matches2, prefix_digits. cbn [is_prefixb length hex_encode app andb].
    destruct nib as [n|]; [|reflexivity]. destruct Ha as [|a ar Ha _]; [reflexivity|].
    cbn [nth_error hex_encode is_prefixb]. rewrite andb_true_r, hex_digit_eqb by first [apply Hn; reflexivity | lia].
    rewrite N.shiftr_div_pow2. apply N.eqb_sym.
  - destruct Ha as [|a ar Ha Har]; [reflexivity|]. rewrite matches2_cons, (IH ar Har).
    unfold prefix_digits. cbn [hex_encode app is_prefixb]. rewrite !hex_digit_eqb by lia.
    rewrite andb_assoc. f_equal. apply eq_true_iff_eq. rewrite andb_true_iff, !N.eqb_eq. lia.
Qed.

(** ** The parser on text *)

Lemma prefix_sound t p :
  parse_prefix t = Ok p -> exists ds, t = s2l "0x" ++ ds /\ Forall is_hex_digit ds.
Proof.
  rewrite parse_prefix_eq. destruct (strip_prefix (s2l "0x") t) as [s|] eqn:Es; [|discriminate].
  apply strip_prefix_some in Es. intros H. exists s. split; [exact Es|]. apply all_hex_digits.
  pose proof (chunks_val_spec (utf8 s)) as C.
  destruct (forallb is_hex (utf8 s)) eqn:Hx; [|rewrite C in H; discriminate].
  rewrite (utf8_ascii_inv s (all_hex_ascii _ Hx)) in Hx. exact Hx.
Qed.

Lemma parse_prefix_digits ds :
  Forall is_hex_digit ds ->
  exists bs nib, parse_prefix (s2l "0x" ++ ds) = Ok {| p_bytes := bs; p_nibble := nib |}
    /\ map to_lower ds = prefix_digits bs nib
    /\ bytes_ok bs
    /\ length bs = Nat.div (length ds) 2
    /\ (nib = None <-> Nat.even (length ds) = true)
    /\ (forall n, nib = Some n -> n < 16).
Proof.
  intros H. apply all_hex_digits in H. pose proof (chunks_val_spec ds) as C. rewrite H in C.
  destruct C as (bs & nib & E & C). exists bs, nib. split; [|exact C].
  rewrite parse_prefix_eq, strip_prefix_app, utf8_ascii, E by (apply all_hex_ascii, H). reflexivity.
Qed.

Lemma prefix_spec ds p addr :
  parse_prefix (s2l "0x" ++ ds) = Ok p -> bytes_ok addr ->
  (matches p addr = true <-> hex_prefix_matches ds addr).
Proof.
  intros Hp Hok. destruct (prefix_sound _ _ Hp) as (ds' & Heq & Hd).
  apply app_inv_head in Heq as <-.
  destruct (parse_prefix_digits ds Hd) as (bs & nib & E & Hm & Hbs & _ & _ & Hn).
  rewrite E in Hp. injection Hp as <-. rewrite matches_matches2. cbn [p_bytes p_nibble].
  rewrite (matches2_digits _ _ _ Hbs Hn Hok), <- Hm. apply is_prefixb_spec.
Qed.

Lemma prefix_total t : graceful (parse_prefix t).
Proof.
  rewrite parse_prefix_eq. destruct (strip_prefix (s2l "0x") t); [|apply graceful_err].
  apply graceful_omap, graceful_of_option.
Qed.

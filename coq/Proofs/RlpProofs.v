(** C07 — proofs: the code-shaped model of [rlp.rs] computes the Yellow-Paper encoding, the
    strict decoder inverts it (round trip) and accepts nothing else (strictness). *)
From Coq Require Import List NArith Lia Bool.
From HDW Require Import Lib.Outcome Lib.Radix Lib.Bytes Model.Rlp Spec.RlpSpec.
Import ListNotations.
Open Scope N_scope.

Lemma firstn_app_exact {A} (a b : list A) : firstn (length a) (a ++ b) = a.
Proof. apply firstn_app_len. reflexivity. Qed.

Lemma be_min_nonempty n : n <> 0 -> be_min n <> [].
Proof. apply to_digits_nonempty. lia. Qed.

(** * The model computes the Yellow-Paper encoding *)

Lemma be_min_size n : N.size n <= 8 * N.of_nat (length (be_min n)) < N.size n + 8.
Proof.
  pose proof (be_val_bound _ (be_min_ok n)) as Hhi. rewrite be_val_min, pow256 in Hhi.
  pose proof (be_min_canonical n) as C.
  destruct (be_min n) as [|d r] eqn:E; cbn [length] in *.
  - assert (n = 0) as -> by lia. change (N.size 0) with 0. lia.
  - pose proof (canonical_lower_bound 256 d r ltac:(lia) C) as Hlo.
    fold (be_val (d :: r)) in Hlo. rewrite <- E, be_val_min, pow256 in Hlo.
    assert (Hn : 0 < n) by (pose proof (N.pow_nonzero 2 (8 * N.of_nat (length r))); lia).
    apply N.log2_le_pow2 in Hlo; [|exact Hn]. apply N.log2_lt_pow2 in Hhi; [|exact Hn].
    rewrite N.size_log2 by lia. lia.
Qed.

(** the slice [&x.to_be_bytes()[x.leading_zeros() / 8 ..]] of [len] ([w] = 64) and [uint] ([w] = 256) *)
Lemma lz_strip w k n :
  w = 8 * N.of_nat k -> n < 256 ^ N.of_nat k ->
  skipn (N.to_nat (leading_zeros w n / 8)) (be_fixed k n) = be_min n.
Proof.
  intros -> Hn. unfold be_fixed, be_min.
  rewrite (to_digits_fixed_pad 256 k n) by (assumption || lia). fold (be_min n).
  apply skipn_app_len. rewrite repeat_length.
  pose proof (be_min_length_le k n Hn). pose proof (be_min_size n). unfold leading_zeros. lia.
Qed.

(** the [u8] no-overflow obligation: at most 8 length bytes, [8 + 0xc0 + 55 = 255] *)
Lemma be_min_len n : n < 2 ^ 64 -> (length (be_min n) <= 8)%nat.
Proof. exact (be_min_length_le 8 n). Qed.

Lemma enc_len_short n off : n < 56 -> enc_len n off = [off + n].
Proof. intros H. unfold enc_len. apply N.ltb_lt in H. rewrite H. reflexivity. Qed.

Lemma enc_len_long n off :
  56 <= n -> enc_len n off = (off + 55 + N.of_nat (length (be_min n))) :: be_min n.
Proof. intros H. unfold enc_len. apply N.ltb_ge in H. rewrite H. reflexivity. Qed.

Lemma u8_add_ok a b : a + b < 256 -> u8_add a b = Ok (a + b).
Proof. intros H. unfold u8_add. apply N.ltb_lt in H. rewrite H. reflexivity. Qed.

Lemma rlp_len_enc n off : n < 2 ^ 64 -> off <= 0xc0 -> rlp_len n off = Ok (enc_len n off).
Proof.
  intros Hn Hoff. unfold rlp_len. destruct (N.ltb_spec n 56) as [Hlt|Hge].
  - rewrite u8_add_ok, enc_len_short by lia. cbn [bind]. do 2 f_equal. lia.
  - cbv zeta. rewrite (lz_strip 64 8 n eq_refl Hn), enc_len_long by exact Hge.
    pose proof (be_min_len n Hn) as HL.
    rewrite u8_add_ok by lia. cbn [bind]. rewrite u8_add_ok by lia. cbn [bind]. do 2 f_equal. lia.
Qed.

Lemma rlp_bytes_hdr_enc b :
  N.of_nat (length b) < 2 ^ 64 -> rlp_bytes_hdr b = Ok (enc_len (N.of_nat (length b)) 128 ++ b).
Proof.
  intros H. unfold rlp_bytes_hdr. rewrite rlp_len_enc by (assumption || lia). reflexivity.
Qed.

Lemma rlp_bytes_enc b : N.of_nat (length b) < 2 ^ 64 -> rlp_bytes b = Ok (enc (Str b)).
Proof.
  intros H. cbn [enc]. unfold rlp_bytes, enc_str.
  (* both answer a single byte below 0x80 with itself and everything else in header form *)
  destruct b as [|x [|y r]].
  - apply rlp_bytes_hdr_enc, H.
  - destruct (x <? 128); [reflexivity|apply rlp_bytes_hdr_enc, H].
  - apply rlp_bytes_hdr_enc, H.
Qed.

Lemma rlp_uint_enc v : v < 2 ^ 256 -> rlp_uint v = Ok (enc (Str (be_min v))).
Proof.
  intros H. unfold rlp_uint. cbv zeta. rewrite (lz_strip 256 32 v eq_refl H).
  apply rlp_bytes_enc. pose proof (be_min_length_le 32 v H). lia.
Qed.

Lemma rlp_total_len_acc (items : list bytes) a :
  fold_left (fun a item => a + N.of_nat (length item)) items a
  = a + N.of_nat (length (concat items)).
Proof.
  revert a; induction items as [|x r IH]; intros a; cbn [fold_left concat length].
  - change (N.of_nat 0) with 0. lia.
  - rewrite IH, app_length. lia.
Qed.

Lemma rlp_total_len_concat items : rlp_total_len items = N.of_nat (length (concat items)).
Proof. apply rlp_total_len_acc. Qed.

(** [rlp_iter] is [rlp_list] by definition, so this is the statement for both. *)
Lemma rlp_list_enc l :
  N.of_nat (length (flat_map enc l)) < 2 ^ 64 -> rlp_list (map enc l) = Ok (enc (Lst l)).
Proof.
  intros H. unfold rlp_list. cbv zeta.
  rewrite rlp_total_len_concat, <- flat_map_concat_map.
  apply N.ltb_lt in H as Hb. rewrite Hb.
  rewrite rlp_len_enc by (assumption || lia). reflexivity.
Qed.

(** * The header decoder *)

Lemma take_0 l : take 0 l = Some ([], l).
Proof. destruct l; reflexivity. Qed.

Lemma take_cons n x r :
  n <> 0 ->
  take n (x :: r) = match take (N.pred n) r with Some (p, q) => Some (x :: p, q) | None => None end.
Proof. intros Hn. cbn [take]. destruct (N.eqb_spec n 0); [contradiction|reflexivity]. Qed.

Lemma take_app p r : take (N.of_nat (length p)) (p ++ r) = Some (p, r).
Proof.
  induction p as [|x p IH]; cbn [length app].
  - apply take_0.
  - rewrite take_cons by lia.
    replace (N.pred (N.of_nat (S (length p)))) with (N.of_nat (length p)) by lia.
    rewrite IH. reflexivity.
Qed.

Lemma take_some l : forall n p r, take n l = Some (p, r) -> l = p ++ r /\ N.of_nat (length p) = n.
Proof.
  induction l as [|x l IH]; intros n p r H.
  - cbn [take] in H. destruct (N.eqb_spec n 0); [|discriminate].
    inversion H; subst. split; reflexivity.
  - destruct (N.eq_dec n 0) as [->|Hn].
    + rewrite take_0 in H. inversion H; subst. split; reflexivity.
    + rewrite take_cons in H by assumption.
      destruct (take (N.pred n) l) as [[p' q]|] eqn:T; [|discriminate].
      inversion H; subst. apply IH in T as [-> Hlen]. cbn [length app]. split; [reflexivity|lia].
Qed.

(** [long_len] refuses a length whose first byte is 0 by a [match]; on a canonical numeral the
    match takes its other arm *)
Lemma no_lead0 {A} (b : bytes) (x y : A) :
  canonical b -> match b with 0 :: _ => x | _ => y end = y.
Proof. destruct b as [|[|q] r]; [reflexivity| |reflexivity]. intros C. destruct (C eq_refl). Qed.

Lemma long_len_ok n t :
  56 <= n -> long_len (N.of_nat (length (be_min n))) (be_min n ++ t) = Some (n, t).
Proof.
  intros Hn. unfold long_len. rewrite take_app, (no_lead0 _ _ _ (be_min_canonical n)), be_val_min.
  apply N.ltb_ge in Hn. cbv zeta. rewrite Hn. reflexivity.
Qed.

Lemma long_len_sound ll t n t' :
  bytes_ok t -> ll <= 8 -> long_len ll t = Some (n, t') ->
  56 <= n /\ n < 2 ^ 64 /\ t = be_min n ++ t' /\ N.of_nat (length (be_min n)) = ll.
Proof.
  intros Hok Hll. unfold long_len.
  destruct (take ll t) as [[lb t'']|] eqn:T; [|discriminate].
  apply take_some in T as [-> Hlen]. apply bytes_ok_app in Hok as [Hlb _].
  intros H. assert (C : canonical lb) by (destruct lb as [|[|q] r]; [exact I|discriminate H|discriminate]).
  rewrite (no_lead0 _ _ _ C) in H. cbv zeta in H.
  destruct (N.ltb_spec (be_val lb) 56) as [|Hge]; [discriminate|].
  injection H as <- <-. rewrite (be_min_val lb Hlb C).
  pose proof (be_val_bound lb Hlb) as B.
  assert (256 ^ N.of_nat (length lb) <= 256 ^ N.of_nat 8) by (apply N.pow_le_mono_r; lia).
  change (256 ^ N.of_nat 8) with (2 ^ 64) in *. repeat split; auto. lia.
Qed.

Lemma single_low_true p : single_low p = true -> exists x, p = [x] /\ x < 128.
Proof.
  destruct p as [|x [|y r]]; cbn [single_low]; intros H; try discriminate.
  exists x. split; [reflexivity|]. apply N.ltb_lt, H.
Qed.

Lemma enc_str_cases p :
  enc_str p = if single_low p then p else enc_len (N.of_nat (length p)) 128 ++ p.
Proof. destruct p as [|x [|y r]]; reflexivity. Qed.

(** [dec_hdr] reads strings ([off] = 0x80) and lists ([off] = 0xc0) in one way: the header
    bytes [off .. off + 63] announce a payload, its length given directly ([off + n], [n < 56])
    or in long form.  [k] is told which of the two and receives the payload and the rest;
    [other] is the result for the header bytes above. *)
Definition read {R} (off h : N) (t : bytes) (k : bool -> bytes -> bytes -> option R)
    (other : option R) : option R :=
  if h <? off + 56 then
    match take (h - off) t with Some (p, r) => k true p r | None => None end
  else if h <? off + 64 then
    match long_len (h - (off + 55)) t with
    | Some (n, t') => match take n t' with Some (p, r) => k false p r | None => None end
    | None => None
    end
  else other.

Lemma dec_hdr_read h t :
  dec_hdr (h :: t) =
  if h <? 0x80 then Some (false, [h], t)
  else read 0x80 h t (fun short p r => if short && single_low p then None else Some (false, p, r))
         (read 0xc0 h t (fun _ p r => Some (true, p, r)) None).
Proof. reflexivity. Qed.

Lemma read_enc off p r :
  N.of_nat (length p) < 2 ^ 64 ->
  exists h t, enc_len (N.of_nat (length p)) off ++ p ++ r = h :: t /\ off <= h < off + 64
              /\ forall R k other, @read R off h t k other = k (N.of_nat (length p) <? 56) p r.
Proof.
  intros Hlen. unfold read. destruct (N.ltb_spec (N.of_nat (length p)) 56) as [Hs|Hl].
  - rewrite enc_len_short by exact Hs. eexists _, _. split; [reflexivity|]. split; [lia|].
    intros R k other. rewrite (proj2 (N.ltb_lt _ _)) by lia.
    replace (off + N.of_nat (length p) - off) with (N.of_nat (length p)) by lia.
    rewrite take_app. reflexivity.
  - rewrite enc_len_long by exact Hl. eexists _, _. split; [reflexivity|].
    pose proof (be_min_len _ Hlen).
    assert (1 <= length (be_min (N.of_nat (length p))))%nat.
    { destruct (be_min _) eqn:E; [apply be_min_nonempty in E; [destruct E|lia]|cbn [length]; lia]. }
    split; [lia|]. intros R k other.
    rewrite (proj2 (N.ltb_ge _ (off + 56))), (proj2 (N.ltb_lt _ (off + 64))) by lia.
    replace (_ - (off + 55)) with (N.of_nat (length (be_min (N.of_nat (length p))))) by lia.
    rewrite long_len_ok, take_app by exact Hl. reflexivity.
Qed.

Lemma read_sound {R} off h t k other (x : R) :
  bytes_ok t -> off <= h -> read off h t k other = Some x ->
  (off + 64 <= h /\ other = Some x)
  \/ exists p r, h :: t = enc_len (N.of_nat (length p)) off ++ p ++ r
                 /\ N.of_nat (length p) < 2 ^ 64 /\ bytes_ok p
                 /\ k (N.of_nat (length p) <? 56) p r = Some x.
Proof.
  intros Hok Hh. unfold read. destruct (N.ltb_spec h (off + 56)) as [Hs|Hl].
  - destruct (take (h - off) t) as [[p r]|] eqn:T; [|discriminate].
    apply take_some in T as [-> Hn]. apply bytes_ok_app in Hok as [Hp _].
    intros K. right. exists p, r. rewrite Hn, enc_len_short, (proj2 (N.ltb_lt _ 56)) by lia.
    repeat split; [cbn [app]; f_equal; lia|lia|exact Hp|exact K].
  - destruct (N.ltb_spec h (off + 64)) as [Hl'|Hl']; [|left; split; assumption].
    destruct (long_len (h - (off + 55)) t) as [[n t']|] eqn:LL; [|discriminate].
    apply long_len_sound in LL as (Hn & Hn64 & -> & HL); [|assumption|lia].
    destruct (take n t') as [[p r]|] eqn:T; [|discriminate]. apply take_some in T as [-> Hlen].
    apply bytes_ok_app in Hok as [_ Hok]. apply bytes_ok_app in Hok as [Hp _].
    intros K. right. exists p, r. rewrite Hlen, enc_len_long, (proj2 (N.ltb_ge _ 56)) by exact Hn.
    repeat split; [cbn [app]; f_equal; lia|lia|exact Hp|exact K].
Qed.

(** [enc i] is the frame of the kind of [i] and its payload; [dec_hdr] inverts [frame]. *)
Definition frame (isl : bool) (p : bytes) : bytes :=
  if isl then enc_len (N.of_nat (length p)) 192 ++ p else enc_str p.

Lemma dec_hdr_frame isl p r :
  N.of_nat (length p) < 2 ^ 64 -> dec_hdr (frame isl p ++ r) = Some (isl, p, r).
Proof.
  intros Hlen. unfold frame. destruct isl.
  - destruct (read_enc 0xc0 p r Hlen) as (h & t & E & Hh & D).
    rewrite <- app_assoc, E, dec_hdr_read, (proj2 (N.ltb_ge h 0x80)) by lia. unfold read at 1.
    rewrite (proj2 (N.ltb_ge h (0x80 + 56))), (proj2 (N.ltb_ge h (0x80 + 64))) by lia. apply D.
  - rewrite enc_str_cases. destruct (single_low p) eqn:S.
    + apply single_low_true in S as (x & -> & Hx). apply N.ltb_lt in Hx.
      cbn [app]. unfold dec_hdr. rewrite Hx. reflexivity.
    + destruct (read_enc 0x80 p r Hlen) as (h & t & E & Hh & D).
      rewrite <- app_assoc, E, dec_hdr_read, (proj2 (N.ltb_ge h 0x80)), D, S, andb_false_r by lia.
      reflexivity.
Qed.

Lemma dec_hdr_sound bs isl p r :
  bytes_ok bs -> dec_hdr bs = Some (isl, p, r) ->
  bs = frame isl p ++ r /\ N.of_nat (length p) < 2 ^ 64 /\ bytes_ok p.
Proof.
  intros Hok. destruct bs as [|h t]; [discriminate|]. rewrite dec_hdr_read.
  inversion Hok as [|? ? Hh Ht]; subst. unfold frame.
  destruct (N.ltb_spec h 0x80) as [H1|H1].
  { intros [= <- <- <-]. rewrite enc_str_cases. cbn [single_low]. apply N.ltb_lt in H1. rewrite H1.
    split; [reflexivity|]. split; [cbn [length]; lia|]. constructor; [exact Hh|constructor]. }
  intros D. apply read_sound in D as [[H2 D]|(p' & r' & E & Hlen & Hp & D)]; [| |assumption|lia].
  - apply read_sound in D as [[_ D]|(p' & r' & E & Hlen & Hp & D)]; [discriminate| |assumption|lia].
    injection D as <- <- <-. rewrite E, app_assoc. auto.
  - destruct (single_low p') eqn:S.
    { (* a single low byte is short, so the test applies *)
      destruct (single_low_true p' S) as (x & -> & _). discriminate D. }
    rewrite andb_false_r in D. injection D as <- <- <-. rewrite enc_str_cases, S, E, app_assoc. auto.
Qed.

Lemma enc_len_nonempty n off : (1 <= length (enc_len n off))%nat.
Proof. unfold enc_len. destruct (n <? 56); cbn [length]; lia. Qed.

Lemma enc_nonempty i : (1 <= length (enc i))%nat.
Proof.
  assert (H : forall n off b, (1 <= length (enc_len n off ++ b))%nat).
  { intros. rewrite app_length. pose proof (enc_len_nonempty n off). lia. }
  destruct i as [b|l]; cbn [enc]; [|apply H].
  rewrite enc_str_cases. destruct (single_low b) eqn:S; [|apply H].
  apply single_low_true in S as (x & -> & _). reflexivity.
Qed.

Lemma dec1_enc seq i r :
  wf_item i -> (forall l, i = Lst l -> seq (flat_map enc l) = Some l) ->
  dec1 seq (enc i ++ r) = Some (i, r).
Proof.
  intros Hwf Hseq. unfold dec1. destruct Hwf as [b Hb Hlen|l Hall Hlen].
  - change (enc (Str b)) with (frame false b). rewrite dec_hdr_frame by exact Hlen. reflexivity.
  - change (enc (Lst l)) with (frame true (flat_map enc l)).
    rewrite dec_hdr_frame, (Hseq l eq_refl) by exact Hlen. reflexivity.
Qed.

Lemma dec1_sound seq bs i r :
  (forall p l, bytes_ok p -> seq p = Some l -> p = flat_map enc l /\ Forall wf_item l) ->
  bytes_ok bs -> dec1 seq bs = Some (i, r) -> bs = enc i ++ r /\ wf_item i.
Proof.
  intros Hseq Hok. unfold dec1.
  destruct (dec_hdr bs) as [[[isl p] r']|] eqn:D; [|discriminate].
  apply dec_hdr_sound in D as (Hbs & Hlen & Hp); [|assumption].
  destruct isl.
  - destruct (seq p) as [l|] eqn:Sq; [|discriminate].
    intros [= <- <-]. destruct (Hseq p l Hp Sq) as [-> Hwf].
    split; [exact Hbs|]. constructor; assumption.
  - intros [= <- <-]. split; [exact Hbs|]. constructor; assumption.
Qed.

(** * Round trip *)

Lemma dec_seq_nonempty f bs :
  bs <> [] ->
  dec_seq (S f) bs =
  match dec1 (dec_seq f) bs with
  | Some (i, r) => match dec_seq f r with Some l => Some (i :: l) | None => None end
  | None => None
  end.
Proof. destruct bs; [congruence|reflexivity]. Qed.

(** the principle Coq generates for [item] has no hypothesis for the members of a list *)
Fixpoint item_rect' (P : item -> Prop)
    (HS : forall b, P (Str b)) (HL : forall l, Forall P l -> P (Lst l)) (i : item) : P i :=
  match i with
  | Str b => HS b
  | Lst l =>
      HL l ((fix go (l : list item) : Forall P l :=
               match l with
               | [] => Forall_nil P
               | x :: r => Forall_cons x (item_rect' P HS HL x) (go r)
               end) l)
  end.

(** the invariant of the round trip: any fuel at least the length of the encoding is enough *)
Definition rt (i : item) : Prop :=
  forall f rest, (length (enc i) <= f)%nat -> dec_item f (enc i ++ rest) = Some (i, rest).

Lemma dec_seq_complete l :
  Forall rt l -> forall f, (length (flat_map enc l) < f)%nat -> dec_seq f (flat_map enc l) = Some l.
Proof.
  induction 1 as [|x r Hx Hr IH]; intros f Hf.
  - destruct f as [|f]; [lia|]. reflexivity.
  - destruct f as [|f]; [lia|]. cbn [flat_map] in *. rewrite app_length in Hf.
    pose proof (enc_nonempty x) as Hne.
    rewrite dec_seq_nonempty by (destruct (enc x); [cbn [length] in Hne; lia|discriminate]).
    unfold rt, dec_item in Hx. rewrite Hx by lia.
    rewrite IH by lia. reflexivity.
Qed.

Lemma dec_enc_fuel : forall i, wf_item i -> rt i.
Proof.
  apply (item_rect' (fun i => wf_item i -> rt i)).
  - intros b Hwf f rest _. apply dec1_enc; [exact Hwf|discriminate].
  - intros l IH Hwf f rest Hf. apply dec1_enc; [exact Hwf|]. intros ? [= <-].
    inversion Hwf as [|l' Hall Hlen]; subst. apply dec_seq_complete.
    + rewrite Forall_forall in *. intros x Hx. apply IH; [exact Hx|]. apply Hall, Hx.
    + cbn [enc] in Hf. cbv zeta in Hf. rewrite app_length in Hf.
      pose proof (enc_len_nonempty (N.of_nat (length (flat_map enc l))) 192). lia.
Qed.

(** the fuel [dec_strict] computes from its input is enough *)
Lemma roundtrip i rest : wf_item i -> dec_strict (enc i ++ rest) = Some (i, rest).
Proof.
  intros Hwf. unfold dec_strict. apply (dec_enc_fuel i Hwf). rewrite app_length. lia.
Qed.

Lemma roundtrip_nil i : wf_item i -> dec_strict (enc i) = Some (i, []).
Proof. intros Hwf. rewrite <- (app_nil_r (enc i)) at 1. apply roundtrip, Hwf. Qed.

(** a model function that returns [enc] of a well-formed item returns something the strict decoder
    consumes completely and maps back to that item *)
Lemma emitted_decodes (x : outcome bytes) i :
  x = Ok (enc i) -> wf_item i -> exists e, x = Ok e /\ dec_strict e = Some (i, []).
Proof. intros -> Hi. exists (enc i). exact (conj eq_refl (roundtrip_nil i Hi)). Qed.

(** * Strictness: only canonical encodings are accepted *)

Lemma dec_seq_sound f : forall bs l,
  bytes_ok bs -> dec_seq f bs = Some l -> bs = flat_map enc l /\ Forall wf_item l.
Proof.
  induction f as [|f IH]; intros bs l Hok H; [discriminate|].
  destruct bs as [|h t].
  - inversion H; subst. split; [reflexivity|constructor].
  - rewrite dec_seq_nonempty in H by discriminate.
    destruct (dec1 (dec_seq f) (h :: t)) as [[i r]|] eqn:D; [|discriminate].
    destruct (dec_seq f r) as [l'|] eqn:D2; [|discriminate].
    injection H as <-.
    apply (dec1_sound _ _ _ _ IH Hok) in D as [Hbs Hwf].
    assert (Hr : bytes_ok r).
    { rewrite Hbs in Hok. apply bytes_ok_app in Hok as [_ Hok]. exact Hok. }
    destruct (IH r l' Hr D2) as [-> Hall].
    split; [exact Hbs|]. constructor; assumption.
Qed.

Lemma strict bs i rest :
  bytes_ok bs -> dec_strict bs = Some (i, rest) -> bs = enc i ++ rest /\ wf_item i.
Proof.
  intros Hok H. unfold dec_strict, dec_item in H.
  exact (dec1_sound _ _ _ _ (dec_seq_sound _) Hok H).
Qed.

Lemma prefix_free a b r1 r2 :
  wf_item a -> wf_item b -> enc a ++ r1 = enc b ++ r2 -> a = b /\ r1 = r2.
Proof.
  intros Ha Hb E.
  pose proof (roundtrip a r1 Ha) as Da. pose proof (roundtrip b r2 Hb) as Db.
  rewrite E, Db in Da. inversion Da; subst. auto.
Qed.

Lemma injective a b : wf_item a -> wf_item b -> enc a = enc b -> a = b.
Proof.
  intros Ha Hb E. apply (prefix_free a b [] [] Ha Hb). rewrite E. reflexivity.
Qed.

Lemma uint_canonical v : int_of_str (be_min v) = Some v /\ (v = 0 -> be_min v = []).
Proof.
  split; [|intros ->; reflexivity].
  unfold int_of_str. rewrite (no_lead0 _ _ _ (be_min_canonical v)), be_val_min. reflexivity.
Qed.

Lemma wf_uint v : v < 2 ^ 256 -> wf_item (Str (be_min v)).
Proof. intros H. pose proof (be_min_length_le 32 v H). constructor; [apply be_min_ok|lia]. Qed.

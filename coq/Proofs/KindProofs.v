(** Lemmas about the EIP-712 member type grammar ([Model/Eip712Kind.v]): the equality test, the
    string primitives of the parser, its fuel, the sized atoms and print-then-parse. *)
From Coq Require Import String.
From Coq Require Import List NArith Bool Lia.
From HDW Require Import Lib.Bytes Lib.Decimal Model.Eip712Kind.
Import ListNotations.
Open Scope N_scope.

(** * Equality test *)

Lemma optN_eqb_spec a b : optN_eqb a b = true <-> a = b.
Proof.
  destruct a as [x|], b as [y|]; cbn [optN_eqb]; rewrite ?N.eqb_eq;
    (split; [intros H; try discriminate H | intros [=]]); subst; reflexivity.
Qed.

Lemma kind_eqb_spec a b : kind_eqb a b = true <-> a = b.
Proof.
  revert b. induction a as [x|x|x| | | |x|i IH x]; intros [y|y|y| | | |y|j y]; cbn [kind_eqb];
    try (split; [discriminate|intros [=]]).
  (* what is left is the diagonal: one boolean test per constructor argument *)
  all: rewrite ?andb_true_iff, ?IH, ?optN_eqb_spec, ?N.eqb_eq, ?list_eqb_spec.
  all: split; [intros H; decompose [and] H; subst; reflexivity | intros [=]; auto].
Qed.

Lemma kind_eqb_refl a : kind_eqb a a = true.
Proof. apply kind_eqb_spec. reflexivity. Qed.

Lemma kind_eqb_reflect a b : reflect (a = b) (kind_eqb a b).
Proof. apply iff_reflect. symmetry. apply kind_eqb_spec. Qed.

(** * String primitives *)

Lemma strip_suffix_app suf p : strip_suffix suf (p ++ suf) = Some p.
Proof.
  unfold strip_suffix. rewrite rev_app_distr, strip_prefix_app, rev_involutive. reflexivity.
Qed.

Lemma strip_suffix_some suf s p : strip_suffix suf s = Some p -> s = p ++ suf.
Proof.
  unfold strip_suffix. destruct (strip_prefix (rev suf) (rev s)) as [r|] eqn:E; [|discriminate].
  intros [= <-]. apply strip_prefix_some, rev_eq_app in E. rewrite rev_involutive in E. exact E.
Qed.

Lemma split_once_some c s : forall a b,
  split_once c s = Some (a, b) -> s = a ++ c :: b /\ ~ In c a.
Proof.
  induction s as [|x r IH]; intros a b H; [discriminate|].
  cbn [split_once] in H. destruct (N.eqb_spec x c) as [->|Hx].
  - inversion H; subst. split; [reflexivity|intros []].
  - destruct (split_once c r) as [[a' b']|] eqn:E; [|discriminate].
    inversion H; subst. destruct (IH _ _ eq_refl) as [-> Hn].
    split; [reflexivity|]. intros [Hc|Hc]; [congruence|contradiction].
Qed.

Lemma split_once_app c a b : ~ In c a -> split_once c (a ++ c :: b) = Some (a, b).
Proof.
  induction a as [|x a IH]; intros H; cbn [app split_once].
  - rewrite N.eqb_refl. reflexivity.
  - apply not_in_cons in H as [Hx H]. rewrite (proj2 (N.eqb_neq x c)), IH by auto. reflexivity.
Qed.

Lemma rsplit_once_some c s a b :
  rsplit_once c s = Some (a, b) -> s = a ++ c :: b /\ ~ In c b.
Proof.
  unfold rsplit_once. destruct (split_once c (rev s)) as [[a' b']|] eqn:E; [|discriminate].
  intros [= <- <-]. apply split_once_some in E as [E Hn].
  apply rev_eq_app in E. cbn [rev] in E. rewrite <- app_assoc in E. split; [exact E|].
  intros Hc. apply Hn, in_rev, Hc.
Qed.

Lemma rsplit_once_app c a b : ~ In c b -> rsplit_once c (a ++ c :: b) = Some (a, b).
Proof.
  intros H. unfold rsplit_once. rewrite rev_app_distr. cbn [rev]. rewrite <- app_assoc.
  cbn [app]. rewrite split_once_app.
  - rewrite !rev_involutive. reflexivity.
  - intros Hc. apply H, in_rev, Hc.
Qed.

Lemma split_at_first_some p s : forall a b,
  split_at_first p s = Some (a, b) ->
  s = a ++ b /\ Forall (fun c => p c = false) a /\ exists c r, b = c :: r /\ p c = true.
Proof.
  induction s as [|x r IH]; intros a b H; [discriminate|].
  cbn [split_at_first] in H. destruct (p x) eqn:Px.
  - inversion H; subst. split; [reflexivity|]. split; [constructor|]. eauto.
  - destruct (split_at_first p r) as [[a' b']|] eqn:E; [|discriminate].
    inversion H; subst. destruct (IH _ _ eq_refl) as (-> & Fa & Hb).
    split; [reflexivity|]. split; [constructor; assumption|exact Hb].
Qed.

Lemma split_at_first_none p s :
  Forall (fun c => p c = false) s -> split_at_first p s = None.
Proof.
  induction 1 as [|x r Px _ IH]; cbn [split_at_first]; [reflexivity|]. rewrite Px, IH. reflexivity.
Qed.

Lemma split_at_first_app p a c r :
  Forall (fun c => p c = false) a -> p c = true ->
  split_at_first p (a ++ c :: r) = Some (a, c :: r).
Proof.
  induction a as [|x a IH]; intros Fa Pc; cbn [app split_at_first].
  - rewrite Pc. reflexivity.
  - apply Forall_cons_iff in Fa as [Px Fa]. rewrite Px, IH by assumption. reflexivity.
Qed.

Lemma fixed_suffix_some s p n :
  fixed_suffix s = Some (p, n) ->
  exists ds, s = p ++ 91 :: ds ++ [93] /\ ~ In 91 ds /\ parse_uint usize_max ds = Some n.
Proof.
  unfold fixed_suffix. intros H.
  destruct (strip_suffix [93] s) as [v|] eqn:E1; [|discriminate].
  destruct (rsplit_once 91 v) as [[p' ds]|] eqn:E2; [|discriminate].
  destruct (parse_uint usize_max ds) as [n'|] eqn:E3; [|discriminate].
  inversion H; subst. apply strip_suffix_some in E1. apply rsplit_once_some in E2 as [-> Hn].
  exists ds. rewrite E1, <- app_assoc. cbn [app]. auto.
Qed.

Lemma fixed_suffix_app p ds n :
  ~ In 91 ds -> parse_uint usize_max ds = Some n ->
  fixed_suffix (p ++ 91 :: ds ++ [93]) = Some (p, n).
Proof.
  intros Hn Hp. unfold fixed_suffix.
  replace (p ++ 91 :: ds ++ [93]) with ((p ++ 91 :: ds) ++ [93])
    by (rewrite <- app_assoc; reflexivity).
  rewrite strip_suffix_app, rsplit_once_app by exact Hn. rewrite Hp. reflexivity.
Qed.

Lemma fixed_suffix_decimal p n :
  n <= usize_max -> fixed_suffix (p ++ [91] ++ decimal n ++ [93]) = Some (p, n).
Proof.
  intros Hn. cbn [app]. apply fixed_suffix_app.
  - apply decimal_no_char. lia.
  - apply parse_decimal. exact Hn.
Qed.

(** * Fuel *)

(** One unfolding of the parser, abstracted over what is done with a kind found without
    recursion ([ret]) and with an array suffix, whose prefix is still to be parsed ([arr]):
    first the four literals, then ([kind_tail]) everything else. *)
Definition kind_tail {R} (ret : kind -> R) (arr : text -> option N -> R) (s : text) : R :=
  match sized_atom s with
  | Some k => ret k
  | None =>
      match strip_suffix (s2l "[]") s with
      | Some prefix => arr prefix None
      | None =>
          match fixed_suffix s with
          | Some (prefix, n) => arr prefix (Some n)
          | None => ret (KStruct s)
          end
      end
  end.

Definition kind_step {R} (ret : kind -> R) (arr : text -> option N -> R) (s : text) : R :=
  if list_eqb s (s2l "bool") then ret KBool
  else if list_eqb s (s2l "address") then ret KAddress
  else if list_eqb s (s2l "bytes") then ret (KBytes None)
  else if list_eqb s (s2l "string") then ret KString
  else kind_tail ret arr s.

Lemma fuel_step f s :
  kind_of_string_fuel (S f) s =
  kind_step (fun k => k) (fun prefix n => KArray (kind_of_string_fuel f prefix) n) s.
Proof. reflexivity. Qed.

Lemma fuel_opt_step f s :
  kind_fuel_opt (S f) s =
  kind_step Some (fun prefix n => option_map (fun k => KArray k n) (kind_fuel_opt f prefix)) s.
Proof. reflexivity. Qed.

(** A step recurses at most once, and then on a strictly shorter text. *)
Lemma kind_step_cases s :
  (exists k, forall R (ret : kind -> R) arr, kind_step ret arr s = ret k) \/
  (exists p n, (length p < length s)%nat /\
               forall R (ret : kind -> R) arr, kind_step ret arr s = arr p n).
Proof.
  unfold kind_step, kind_tail.
  repeat (destruct (list_eqb s _); [left; eexists; reflexivity|]).
  destruct (sized_atom s); [left; eexists; reflexivity|].
  destruct (strip_suffix (s2l "[]") s) as [p|] eqn:E1.
  - right. exists p, None. split; [|reflexivity].
    apply strip_suffix_some in E1. subst s. rewrite app_length. cbn. lia.
  - destruct (fixed_suffix s) as [[p n]|] eqn:E2; [|left; eexists; reflexivity].
    right. exists p, (Some n). split; [|reflexivity].
    apply fixed_suffix_some in E2 as (ds & -> & _). rewrite app_length. cbn [length]. lia.
Qed.

Lemma kind_fuel_indep n : forall m s,
  (length s < n)%nat -> (length s < m)%nat -> kind_of_string_fuel n s = kind_of_string_fuel m s.
Proof.
  induction n as [|n IH]; intros [|m] s Hn Hm; try lia.
  rewrite !fuel_step.
  destruct (kind_step_cases s) as [[k H]|(p & z & Hp & H)]; rewrite !H; [reflexivity|].
  f_equal. apply IH; lia.
Qed.

Lemma kind_fuel_enough s n :
  (length s < n)%nat -> kind_of_string_fuel n s = kind_of_string s.
Proof. intros H. unfold kind_of_string. apply kind_fuel_indep; lia. Qed.

Lemma kind_of_string_unfold s :
  kind_of_string s = kind_step (fun k => k) (fun prefix n => KArray (kind_of_string prefix) n) s.
Proof.
  unfold kind_of_string at 1. rewrite fuel_step.
  destruct (kind_step_cases s) as [[k H]|(p & z & Hp & H)]; rewrite !H; [reflexivity|].
  f_equal. apply kind_fuel_enough. exact Hp.
Qed.

Lemma kind_fuel_never_exhausted n : forall s,
  (length s < n)%nat -> kind_fuel_opt n s = Some (kind_of_string s).
Proof.
  induction n as [|n IH]; intros s Hn; [lia|].
  rewrite kind_of_string_unfold, fuel_opt_step.
  destruct (kind_step_cases s) as [[k H]|(p & z & Hp & H)]; rewrite !H; [reflexivity|].
  rewrite IH by lia. reflexivity.
Qed.

(** From here on [kind_of_string_unfold] is the defining equation and the fuel is out of sight:
    [cbn]/[simpl], here and in the files that import this one, leave [kind_of_string] alone.
    (Nothing fails to compile without this line.) *)
Global Opaque kind_of_string.

(** * [sized_atom] *)

(** The only range of the table that meets ASCII is that of the digits. *)
Lemma is_numeric_ascii c : c < 128 -> is_numeric c = is_digit c.
Proof.
  intros Hc. unfold is_numeric. change numeric_ranges with ((48, 57) :: tl numeric_ranges).
  cbn [existsb fst snd]. fold (is_digit c).
  destruct (existsb _ (tl numeric_ranges)) eqn:E; [|apply orb_false_r].
  apply existsb_exists in E as (r & Hin & Hr).
  assert (F : forallb (fun r => 128 <=? fst r) (tl numeric_ranges) = true) by reflexivity.
  rewrite forallb_forall in F. specialize (F r Hin). lia.
Qed.

Lemma numeric_like_ascii p : (forall c, c < 128 -> p c = is_digit c) -> numeric_like p.
Proof.
  intros H. split; [|split].
  - intros c Hc. rewrite H by lia. unfold is_digit. lia.
  - rewrite H; reflexivity.
  - repeat (constructor; [rewrite H; reflexivity|]). constructor.
Qed.

Lemma numeric_like_is_numeric : numeric_like is_numeric.
Proof. exact (numeric_like_ascii _ is_numeric_ascii). Qed.

Lemma numeric_like_is_digit : numeric_like is_digit.
Proof. apply numeric_like_ascii. reflexivity. Qed.

(** the three arms of the [match (prefix, n)] of [sized_atom_with] *)
Definition sized_kind (prefix : text) (n : N) : option kind :=
  if list_eqb prefix (s2l "bytes") && ((1 <=? n) && (n <=? 32)) then Some (KBytes (Some n))
  else if list_eqb prefix (s2l "uint") && ((n mod 8 =? 0) && ((8 <=? n) && (n <=? 256)))
  then Some (KUint n)
  else if list_eqb prefix (s2l "int") && ((n mod 8 =? 0) && ((8 <=? n) && (n <=? 256)))
  then Some (KInt n)
  else None.

Lemma sized_atom_with_unfold p s :
  sized_atom_with p s =
  match split_at_first p s with
  | None => None
  | Some (prefix, digits) =>
      match parse_uint u32_max digits with None => None | Some n => sized_kind prefix n end
  end.
Proof. reflexivity. Qed.

Lemma bytes_width_ok_b n : (1 <=? n) && (n <=? 32) = true <-> bytes_width_ok n.
Proof. unfold bytes_width_ok. lia. Qed.

Lemma int_width_ok_b n : (n mod 8 =? 0) && ((8 <=? n) && (n <=? 256)) = true <-> int_width_ok n.
Proof. unfold int_width_ok. lia. Qed.

Lemma sized_kind_spec prefix n k :
  sized_kind prefix n = Some k <->
  (prefix = s2l "bytes" /\ bytes_width_ok n /\ k = KBytes (Some n)) \/
  (prefix = s2l "uint" /\ int_width_ok n /\ k = KUint n) \/
  (prefix = s2l "int" /\ int_width_ok n /\ k = KInt n).
Proof.
  rewrite <- bytes_width_ok_b, <- int_width_ok_b. unfold sized_kind. split.
  - intros H.
    destruct (list_eqb prefix (s2l "bytes") && _) eqn:G; [left|clear G].
    2: destruct (list_eqb prefix (s2l "uint") && _) eqn:G; [right; left|clear G].
    3: destruct (list_eqb prefix (s2l "int") && _) eqn:G; [right; right|discriminate].
    all: apply andb_true_iff in G as [E W]; apply list_eqb_spec in E; injection H as <-; auto.
  - (* the prefixes are literals, so the guards of the other arms evaluate *)
    intros [(-> & W & ->)|[(-> & W & ->)|(-> & W & ->)]]; rewrite W; reflexivity.
Qed.

Lemma numeric_like_prefix p prefix n k :
  numeric_like p -> sized_kind prefix n = Some k -> Forall (fun c => p c = false) prefix.
Proof.
  intros (_ & _ & F) H. apply sized_kind_spec in H.
  change (s2l "bytesuint") with (s2l "bytes" ++ s2l "uint") in F. apply Forall_app in F as [Fb Fu].
  destruct H as [(-> & _)|[(-> & _)|(-> & _)]]; [exact Fb|exact Fu|exact (Forall_inv_tail Fu)].
Qed.

Lemma sized_atom_with_spec p : numeric_like p ->
  forall s k, sized_atom_with p s = Some k <-> sized_spec s k.
Proof.
  intros NL s k. rewrite sized_atom_with_unfold. unfold sized_spec. split.
  - intros H.
    destruct (split_at_first p s) as [[a b]|] eqn:E; [|discriminate].
    apply split_at_first_some in E as (-> & _ & c & r & -> & Pc).
    destruct (parse_uint u32_max (c :: r)) as [n|] eqn:Pn; [|discriminate].
    apply parse_uint_sound in Pn as (Hmax & ds & [Hds|Hds] & Hne & D & ->).
    2:{ (* a leading ['+'] is not numeric *)
        injection Hds as -> _. destruct NL as (_ & N43 & _). congruence. }
    exists a, ds. rewrite Hds. cbv zeta. rewrite <- sized_kind_spec. auto.
  - intros (prefix & ds & -> & Hne & D & Hmax & Hk). apply sized_kind_spec in Hk.
    destruct ds as [|d r]; [contradiction|].
    rewrite split_at_first_app, parse_uint_digits; try assumption.
    + eapply numeric_like_prefix; eassumption.
    + apply NL. inversion D; assumption.
Qed.

Lemma sized_atom_spec s k : sized_atom s = Some k <-> sized_spec s k.
Proof. apply sized_atom_with_spec. exact numeric_like_is_numeric. Qed.

Lemma sized_atom_table_irrelevant p q s :
  numeric_like p -> numeric_like q -> sized_atom_with p s = sized_atom_with q s.
Proof.
  intros Hp Hq.
  pose proof (sized_atom_with_spec p Hp s) as Sp. pose proof (sized_atom_with_spec q Hq s) as Sq.
  destruct (sized_atom_with p s) as [k|].
  - symmetry. apply Sq, Sp. reflexivity.
  - destruct (sized_atom_with q s) as [k|]; [|reflexivity]. apply Sp, Sq. reflexivity.
Qed.

Lemma sized_atom_ascii s : sized_atom s = sized_atom_with is_digit s.
Proof. apply sized_atom_table_irrelevant; [exact numeric_like_is_numeric|exact numeric_like_is_digit]. Qed.

(** whatever follows the first numeric character of a text ending in [']'] ends in [']'] and is
    no number *)
Lemma sized_atom_bracket t : sized_atom (t ++ [93]) = None.
Proof.
  unfold sized_atom. rewrite sized_atom_with_unfold.
  destruct (split_at_first is_numeric (t ++ [93])) as [[a b]|] eqn:E; [|reflexivity].
  apply split_at_first_some in E as (E & _ & c & r & -> & _).
  rewrite (parse_uint_bad_char u32_max (c :: r) 93); [reflexivity| |lia|lia].
  apply (app_snoc_in a _ t); [symmetry; exact E|discriminate].
Qed.

Lemma sized_atom_no_numeric s :
  Forall (fun c => is_numeric c = false) s -> sized_atom s = None.
Proof.
  intros H. unfold sized_atom. rewrite sized_atom_with_unfold, split_at_first_none by exact H.
  reflexivity.
Qed.

Lemma sized_spec_decimal prefix n k :
  sized_kind prefix n = Some k -> sized_spec (prefix ++ decimal n) k.
Proof.
  intros H. apply sized_kind_spec in H. exists prefix, (decimal n).
  rewrite decimal_value. cbv zeta.
  split; [reflexivity|]. split; [apply decimal_nonempty|]. split; [apply decimal_digits|].
  split; [|exact H]. unfold bytes_width_ok, int_width_ok, u32_max in *.
  destruct H as [(_ & W & _)|[(_ & [_ W] & _)|(_ & [_ W] & _)]]; lia.
Qed.

(** * Parsing what [display_kind] prints *)

Lemma literal_lower s : In s literal_atoms -> forallb is_lower s = true.
Proof. intros [<-|[<-|[<-|[<-|[]]]]]; reflexivity. Qed.

Lemma not_literal_char s c : In c s -> is_lower c = false -> ~ In s literal_atoms.
Proof.
  intros Hc Hl Hs. apply literal_lower in Hs. rewrite forallb_forall in Hs.
  rewrite (Hs c Hc) in Hl. discriminate.
Qed.

Lemma not_literal_bracket t : ~ In (t ++ [93]) literal_atoms.
Proof. apply (not_literal_char _ 93); [|reflexivity]. apply in_or_app. right. left. reflexivity. Qed.

Lemma kind_of_nonliteral s :
  ~ In s literal_atoms ->
  kind_of_string s = kind_tail (fun k => k) (fun prefix n => KArray (kind_of_string prefix) n) s.
Proof.
  intros H. rewrite kind_of_string_unfold. unfold kind_step.
  rewrite !list_eqb_false; [reflexivity|..]; intros ->; apply H; unfold literal_atoms; cbn [In];
    auto 6.
Qed.

Lemma kind_sized s k : sized_spec s k -> kind_of_string s = k.
Proof.
  intros H. rewrite kind_of_nonliteral.
  - unfold kind_tail. apply sized_atom_spec in H. rewrite H. reflexivity.
  - (* it contains a digit, the literals do not *)
    destruct H as (prefix & [|d r] & -> & Hne & D & _); [contradiction|].
    apply (not_literal_char _ d); [apply in_or_app; right; left; reflexivity|].
    inversion D; subst. unfold is_lower. lia.
Qed.

Lemma kind_array_dyn t : kind_of_string (t ++ s2l "[]") = KArray (kind_of_string t) None.
Proof.
  change (s2l "[]") with ([91] ++ [93]). rewrite app_assoc.
  rewrite kind_of_nonliteral by apply not_literal_bracket. unfold kind_tail.
  rewrite sized_atom_bracket. rewrite <- app_assoc.
  change ([91] ++ [93]) with (s2l "[]"). rewrite strip_suffix_app. reflexivity.
Qed.

Lemma kind_array_fixed t n :
  n <= usize_max ->
  kind_of_string (t ++ [91] ++ decimal n ++ [93]) = KArray (kind_of_string t) (Some n).
Proof.
  intros Hn.
  assert (E : t ++ [91] ++ decimal n ++ [93] = ((t ++ [91]) ++ decimal n) ++ [93])
    by (rewrite <- !app_assoc; reflexivity).
  rewrite kind_of_nonliteral by (rewrite E; apply not_literal_bracket). unfold kind_tail.
  rewrite E at 1. rewrite sized_atom_bracket.
  destruct (strip_suffix (s2l "[]") (t ++ [91] ++ decimal n ++ [93])) as [p|] eqn:S.
  - (* the character before the final [']'] is the last digit of [n], not ['['] *)
    exfalso. apply strip_suffix_some in S. change (s2l "[]") with ([91] ++ [93]) in S.
    rewrite E, app_assoc in S. apply app_inj_tail in S as [S _].
    apply (decimal_no_char n 91); [lia|].
    exact (app_snoc_in _ _ _ _ S (decimal_nonempty n)).
  - rewrite fixed_suffix_decimal by exact Hn. reflexivity.
Qed.

Lemma ident_like_not_literal name : ident_like name -> ~ In name literal_atoms.
Proof. intros [H _]. exact H. Qed.

Lemma kind_ident name : ident_like name -> struct_name_ok name.
Proof.
  intros [Hl F]. apply Forall_and_inv in F as [Fn F93].
  unfold struct_name_ok. rewrite kind_of_nonliteral by exact Hl. unfold kind_tail.
  rewrite sized_atom_no_numeric by exact Fn.
  assert (N93 : ~ In 93 name).
  { rewrite Forall_forall in F93. intros H. exact (F93 _ H eq_refl). }
  destruct (strip_suffix (s2l "[]") name) as [p|] eqn:S1.
  { destruct N93. apply strip_suffix_some in S1. subst name.
    apply in_or_app. right. right. left. reflexivity. }
  destruct (fixed_suffix name) as [[p n]|] eqn:S2; [|reflexivity].
  destruct N93. apply fixed_suffix_some in S2 as (ds & -> & _).
  apply in_or_app. right. right. apply in_or_app. right. left. reflexivity.
Qed.

(** Print-then-parse is the identity on well-formed kinds, relative to any class [P] of struct
    names that parse as structs. *)
Lemma parse_display_with (P : text -> Prop) :
  (forall name, P name -> struct_name_ok name) ->
  forall k, wf_kind_with P k -> kind_of_string (display_kind k) = k.
Proof.
  intros HP.
  assert (Sized : forall prefix n k,
             sized_kind prefix n = Some k -> kind_of_string (prefix ++ decimal n) = k)
    by (intros prefix n k H; apply kind_sized, sized_spec_decimal, H).
  induction k as [w|n|n| | | |name|inner IH len]; cbn [wf_kind_with display_kind]; intros W.
  - destruct w as [n|].
    + apply Sized, sized_kind_spec. auto.
    + rewrite kind_of_string_unfold. reflexivity.
  - apply Sized, sized_kind_spec. auto.
  - apply Sized, sized_kind_spec. auto 6.
  - rewrite kind_of_string_unfold. reflexivity.
  - rewrite kind_of_string_unfold. reflexivity.
  - rewrite kind_of_string_unfold. reflexivity.
  - apply HP. exact W.
  - destruct len as [n|].
    + destruct W as [W Hn]. rewrite kind_array_fixed by exact Hn. rewrite IH by exact W. reflexivity.
    + rewrite kind_array_dyn, IH by exact W. reflexivity.
Qed.

Lemma atom_table_display :
  Forall (fun e => fst e = display_kind (snd e) /\ wf_kind (snd e)) atom_table.
Proof.
  assert (W : forall (f : N -> text * kind) (Q : text * kind -> Prop),
             (forall n, 1 <= n <= 32 -> Q (f n)) -> Forall Q (map f widths32)).
  { intros f Q H. apply Forall_map, Forall_forall. intros n Hn. apply H.
    apply in_map_iff in Hn as (i & <- & Hi). apply in_seq in Hi. lia. }
  unfold atom_table. repeat (apply Forall_app; split); [repeat constructor|..].
  all: apply W; intros n Hn; split; [reflexivity|].
  all: unfold wf_kind, wf_kind_with, snd, bytes_width_ok, int_width_ok; lia.
Qed.

Lemma atoms : Forall (fun e => kind_of_string (fst e) = snd e /\ display_kind (snd e) = fst e) atom_table.
Proof.
  eapply Forall_impl; [|exact atom_table_display]. intros [s k] [E W]. cbn [fst snd] in *.
  subst s. split; [exact (parse_display_with ident_like kind_ident k W)|reflexivity].
Qed.

Lemma ascii_ident_like name :
  ~ In name literal_atoms -> forallb ascii_ident_char name = true -> ident_like name.
Proof.
  intros Hl H. split; [exact Hl|]. rewrite forallb_forall in H. apply Forall_forall. intros c Hc.
  apply H in Hc. unfold ascii_ident_char, is_upper, is_lower in Hc.
  rewrite is_numeric_ascii by lia. unfold is_digit. lia.
Qed.

Lemma struct_reference_array_dyn t :
  struct_reference (kind_of_string (t ++ s2l "[]")) = struct_reference (kind_of_string t).
Proof. rewrite kind_array_dyn. reflexivity. Qed.

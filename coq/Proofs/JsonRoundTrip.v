(** A print / parse round trip for the JSON text reader of [Model/JsonText.v]:
    [parse_doc (print t) = Ok t] for every syntax tree without floating-point literals whose strings
    and member names are sequences of Unicode scalar values (printed as UTF-8, with the quote, the
    backslash and control characters escaped), with at most 127 levels of arrays / objects.
    Route: (1) more fuel never changes a result that is not [OutOfFuel] ([one_more_fuel]);
    (2) for SOME fuel the value parser reads [print t ++ rest] back as [(t, rest)], by induction over
    the tree ([print_parse_some_fuel]); (3) the fuel of [parse_doc] is enough ([all_steps] of
    [Proofs/JsonTextProofs.v]), so by (1) it gives the same answer. *)
From Coq Require Import List NArith ZArith Bool Lia.
From HDW Require Import Lib.Outcome Lib.Bytes Lib.Hex Lib.Decimal Model.Json Model.Eip712Types Model.JsonText.
From HDW Require Import Proofs.JsonTextProofs.
Import ListNotations.
Open Scope N_scope.

(** * More fuel never changes a result *)

Definition ext3 {X} (F G : N -> bytes -> X -> outcome (jt * bytes)) : Prop :=
  forall d s a, F d s a <> OutOfFuel -> G d s a = F d s a.
Definition ext2 (F G : N -> bytes -> outcome (jt * bytes)) : Prop :=
  forall d s, F d s <> OutOfFuel -> G d s = F d s.

(** Each parser with fuel [S (S f)] and with fuel [S f] runs the same steps around its recursive
    calls, which agree by induction. *)
Lemma one_more_fuel f : ext2 (pv f) (pv (S f)) /\ ext3 (parr f) (parr (S f)) /\ ext3 (pobj f) (pobj (S f)).
Proof.
  induction f as [|f (IV & IA & IO)].
  - repeat split; intros d s; intros; cbn in *; congruence.
  - repeat split.
    + intros d s. cbn [pv]. destruct (skip_ws s) as [|c r]; [reflexivity|].
      destruct (c =? 110); [reflexivity|]. destruct (c =? 116); [reflexivity|].
      destruct (c =? 102); [reflexivity|]. destruct (c =? 34); [reflexivity|].
      destruct (c =? 91); [|destruct (c =? 123); [|reflexivity]].
      * destruct (enter d); [|reflexivity]. destruct (skip_ws r) as [|x r']; [reflexivity|].
        destruct (x =? 93); [reflexivity|apply IA].
      * destruct (enter d); [|reflexivity]. destruct (skip_ws r) as [|x r']; [reflexivity|].
        destruct (x =? 125); [reflexivity|apply IO].
    + intros d s acc H. cbn [parr] in *.
      rewrite (IV d s) by (intros E; rewrite E in H; congruence).
      destruct (pv f d s) as [[v r]| | |]; try reflexivity.
      destruct (skip_ws r) as [|x r']; [reflexivity|].
      destruct (x =? 44); [apply IA; exact H|reflexivity].
    + intros d s acc. cbn [pobj].
      destruct (skip_ws s) as [|q r0]; [reflexivity|].
      destruct (q =? 34); [|reflexivity].
      destruct (pstr r0 []) as [[k r1]| | |]; try reflexivity.
      destruct (skip_ws r1) as [|col r2]; [reflexivity|].
      destruct (col =? 58); [|reflexivity]. intros H.
      rewrite (IV d r2) by (intros E; rewrite E in H; congruence).
      destruct (pv f d r2) as [[v r3]| | |]; try reflexivity.
      destruct (skip_ws r3) as [|x r4]; [reflexivity|].
      destruct (x =? 44); [apply IO; exact H|reflexivity].
Qed.

Lemma pv_fuel_le f g d s x : (f <= g)%nat -> pv f d s = Ok x -> pv g d s = Ok x.
Proof. exact (fuel_le (fun f => pv f d s) (fun f => proj1 (one_more_fuel f) d s) f g x). Qed.
Lemma parr_fuel_le f g d s a x : (f <= g)%nat -> parr f d s a = Ok x -> parr g d s a = Ok x.
Proof. exact (fuel_le (fun f => parr f d s a) (fun f => proj1 (proj2 (one_more_fuel f)) d s a) f g x). Qed.
Lemma pobj_fuel_le f g d s a x : (f <= g)%nat -> pobj f d s a = Ok x -> pobj g d s a = Ok x.
Proof. exact (fuel_le (fun f => pobj f d s a) (fun f => proj2 (proj2 (one_more_fuel f)) d s a) f g x). Qed.

Lemma pv_fueled f d s : (2 * length s + 2 <= f)%nat -> pv f d s <> OutOfFuel.
Proof. intros H. apply (good_graceful s), (proj1 (all_steps f)), H. Qed.

Lemma pv_enough_fuel f g d s : (2 * length s + 2 <= f)%nat -> pv g d s <> OutOfFuel -> pv g d s = pv f d s.
Proof.
  intros Hf Hg. apply (fuel_agree (fun f => pv f d s) (fun f => proj1 (one_more_fuel f) d s)); [exact Hg|].
  apply pv_fueled, Hf.
Qed.

(** * The printer and the trees it is defined for *)

(** a Unicode scalar value: below 0x110000 and not a surrogate *)
Definition scalar_char (c : N) : Prop := c < 0x110000 /\ ~ (0xD800 <= c <= 0xDFFF).
Definition plain (s : text) : Prop := Forall scalar_char s.

(** how the printer writes one character of a string: the quote and the backslash escaped, control
    characters as \u00XX, everything else as its UTF-8 bytes *)
Definition esc_char (c : N) : list N :=
  if c =? 34 then [92; 34]
  else if c =? 92 then [92; 92]
  else if c <? 32 then [92; 117; 48; 48; hex_digit (c / 16); hex_digit (c mod 16)]
  else utf8_char c.
Definition esc (s : text) : list N := flat_map esc_char s.

Fixpoint print_items (l : list (list N)) (close : N) : list N :=
  match l with
  | [] => [close]
  | x :: r => match r with [] => x ++ [close] | _ :: _ => x ++ 44 :: print_items r close end
  end.

(** compact JSON: no white space, members in the order of the tree, integers in decimal *)
Fixpoint print (t : jt) : list N :=
  match t with
  | TNull => [110; 117; 108; 108]
  | TBool true => [116; 114; 117; 101]
  | TBool false => [102; 97; 108; 115; 101]
  | TNum (NumU n) => decimal n
  | TNum (NumI z) => 45 :: decimal (Z.to_N (Z.opp z))
  | TNum (NumF _ _ _) => []   (* no spelling is chosen for these; [simple] excludes them *)
  | TStr s => 34 :: esc s ++ [34]
  | TArr l => 91 :: print_items (map print l) 93
  | TObj kvs => 123 :: print_items (map (fun kv => 34 :: esc (fst kv) ++ 34 :: 58 :: print (snd kv)) kvs) 125
  end.

(** what [print] writes for a member; it cannot be used in [print], which it calls *)
Definition print_member (kv : text * jt) : list N := 34 :: esc (fst kv) ++ 34 :: 58 :: print (snd kv).

Lemma print_obj kvs : print (TObj kvs) = 123 :: print_items (map print_member kvs) 125.
Proof. reflexivity. Qed.

(** [simple d t]: no floating-point literal, integers in the u64 / negative i64 range, plain
    strings and member names, at most [d] levels of arrays / objects *)
Fixpoint simple (d : nat) (t : jt) {struct t} : Prop :=
  match t with
  | TNull => True
  | TBool _ => True
  | TNum (NumU n) => n < 2 ^ 64
  | TNum (NumI z) => (- 2 ^ 63 <= z <= -1)%Z
  | TNum (NumF _ _ _) => False
  | TStr s => plain s
  | TArr l =>
      match d with
      | O => False
      | S d' => (fix go (l : list jt) : Prop := match l with [] => True | x :: r => simple d' x /\ go r end) l
      end
  | TObj kvs =>
      match d with
      | O => False
      | S d' => (fix go (l : list (text * jt)) : Prop :=
                   match l with [] => True | kv :: r => (plain (fst kv) /\ simple d' (snd kv)) /\ go r end) kvs
      end
  end.

Lemma simple_arr d l : simple (S d) (TArr l) <-> Forall (simple d) l.
Proof.
  cbn [simple]. induction l as [|x r IH]; [split; constructor|].
  rewrite Forall_cons_iff, <- IH. reflexivity.
Qed.

Lemma simple_obj d kvs : simple (S d) (TObj kvs) <-> Forall (fun kv => plain (fst kv) /\ simple d (snd kv)) kvs.
Proof.
  cbn [simple]. induction kvs as [|x r IH]; [split; constructor|].
  rewrite Forall_cons_iff, <- IH. reflexivity.
Qed.

Lemma print_items_one x close : print_items [x] close = x ++ [close].
Proof. reflexivity. Qed.
Lemma print_items_cons x y r close : print_items (x :: y :: r) close = x ++ 44 :: print_items (y :: r) close.
Proof. reflexivity. Qed.

(** * Strings: after what the printer writes for a character, [pstr_body] goes on with that character *)

(** the shape of [utf8_body]'s range tests on the second byte; [lia] does not look inside an [if] *)
Lemma guard_true (p q : bool) : (p = true -> q = true) -> (if p then q else true) = true.
Proof. destruct p; auto. Qed.

Section Chars.
  Context {R : Type} (q : bytes -> R) (k : N -> bytes -> R) (e : R).

  (** The bytes are written with the base-64 digits of the code point as variables, so that no
      division is left when the tests of [pstr_body] and [utf8_body] are decided, each by [lia]
      from the hypotheses, down to the branch that calls [k]. *)
  Lemma pstr_body_1 c s : 32 <= c < 0x80 -> c <> 34 -> c <> 92 -> pstr_body (c :: s) q k e = k c s.
  Proof. intros. cbn [pstr_body]. unfold utf8_body. repeat decide_if. reflexivity. Qed.

  Lemma pstr_body_2 a m s : 2 <= a < 32 -> m < 64 ->
    pstr_body (0xC0 + a :: 0x80 + m :: s) q k e = k (a * 64 + m) s.
  Proof. intros. cbn [pstr_body]. unfold utf8_body, cont. repeat decide_if. f_equal. lia. Qed.

  (** no overlong form ([a = 0]), no surrogate ([a = 13]) *)
  Lemma pstr_body_3 a b m s : a < 16 -> b < 64 -> m < 64 -> (a = 0 -> 32 <= b) -> (a = 13 -> b < 32) ->
    pstr_body (0xE0 + a :: 0x80 + b :: 0x80 + m :: s) q k e = k ((a * 64 + b) * 64 + m) s.
  Proof.
    intros. cbn [pstr_body]. unfold utf8_body, cont. rewrite !guard_true by lia.
    repeat decide_if. f_equal. lia.
  Qed.

  (** no overlong form ([a = 0]), nothing above 0x10FFFF ([a = 4]) *)
  Lemma pstr_body_4 a b c m s :
    a <= 4 -> b < 64 -> c < 64 -> m < 64 -> (a = 0 -> 16 <= b) -> (a = 4 -> b < 16) ->
    pstr_body (0xF0 + a :: 0x80 + b :: 0x80 + c :: 0x80 + m :: s) q k e = k (((a * 64 + b) * 64 + c) * 64 + m) s.
  Proof.
    intros. cbn [pstr_body]. unfold utf8_body, cont. rewrite !guard_true by lia.
    repeat decide_if. f_equal. lia.
  Qed.

  Lemma pstr_body_utf8 c s : 32 <= c -> c <> 34 -> c <> 92 -> scalar_char c ->
    pstr_body (utf8_char c ++ s) q k e = k c s.
  Proof.
    intros H32 H34 H92 [Hlt Hns].
    destruct (utf8_char_cases c) as [[Hc ->]|[[Hc ->]|[[Hc ->]|[Hc ->]]]]; cbn [app].
    - apply pstr_body_1; lia.
    - destruct (div_mod_ex 64 c eq_refl) as (c1 & m0 & -> & -> & -> & L0). apply pstr_body_2; lia.
    - destruct (div_mod_ex 64 c eq_refl) as (c1 & m0 & -> & -> & -> & L0).
      destruct (div_mod_ex 64 c1 eq_refl) as (c2 & m1 & -> & -> & -> & L1). apply pstr_body_3; lia.
    - destruct (div_mod_ex 64 c eq_refl) as (c1 & m0 & -> & -> & -> & L0).
      destruct (div_mod_ex 64 c1 eq_refl) as (c2 & m1 & -> & -> & -> & L1).
      destruct (div_mod_ex 64 c2 eq_refl) as (c3 & m2 & -> & -> & -> & L2).
      rewrite N.mod_small by lia. apply pstr_body_4; lia.
  Qed.

  Lemma pstr_body_u00 a b s : a < 2 -> b < 16 ->
    pstr_body (92 :: 117 :: 48 :: 48 :: hex_digit a :: hex_digit b :: s) q k e = k (a * 16 + b) s.
  Proof.
    intros Ha Hb. cbn [pstr_body escape_body N.eqb Pos.eqb]. unfold hex4.
    change (hex_val 48) with (Some 0). rewrite !hex_val_digit by lia.
    repeat decide_if. reflexivity.
  Qed.

  Lemma pstr_body_esc_char c s : scalar_char c -> pstr_body (esc_char c ++ s) q k e = k c s.
  Proof.
    intros Hc. unfold esc_char.
    destruct (N.eqb_spec c 34) as [->|H34]; [reflexivity|].
    destruct (N.eqb_spec c 92) as [->|H92]; [reflexivity|].
    destruct (N.ltb_spec c 32) as [H32|H32]; [|apply pstr_body_utf8; assumption].
    cbn [app]. rewrite pstr_body_u00 by lia. f_equal. lia.
  Qed.
End Chars.

Lemma pstr_esc_char c s acc : scalar_char c -> pstr (esc_char c ++ s) acc = pstr s (c :: acc).
Proof. intros Hc. rewrite pstr_eq. exact (pstr_body_esc_char _ _ _ c s Hc). Qed.

Lemma pstr_plain s : forall acc rest, plain s -> pstr (esc s ++ 34 :: rest) acc = Ok (rev acc ++ s, rest).
Proof.
  induction s as [|c s IH]; intros acc rest Hp.
  - rewrite app_nil_r. reflexivity.
  - inversion Hp as [|? ? Hc Hs]; subst.
    cbn [esc flat_map]. fold (esc s). rewrite <- app_assoc, (pstr_esc_char c _ acc Hc).
    rewrite IH by assumption. cbn [rev]. rewrite <- app_assoc. reflexivity.
Qed.

(** After an opening bracket [pv] enters the element loop if what follows is neither white space
    nor the closing bracket; so it is for a printed tree or member. *)
Definition head_ok (s : bytes) : Prop :=
  match s with
  | c :: _ => jws c = false /\ c <> 93 /\ c <> 125
  | [] => False
  end.

Lemma head_ok_app s t : head_ok s -> head_ok (s ++ t).
Proof. destruct s; [intros []|exact (fun H => H)]. Qed.

Lemma print_head_ok d t : simple d t -> head_ok (print t).
Proof.
  destruct t as [| [|] | [n|z|ng m e] | s | l | kvs]; cbn [print simple]; intros H;
    try (cbn; repeat split; discriminate).
  - destruct (decimal_head n) as (c & r & -> & Hc). cbn [head_ok]. unfold jws. repeat split; lia.
  - exact H.
Qed.

Lemma print_items_head_ok x r close : head_ok x -> head_ok (print_items (x :: r) close).
Proof. intros H. destruct r; apply head_ok_app, H. Qed.

(** * The round trip *)

(** serde_json's [remaining_depth] when [d] more levels may be opened: [enter] refuses at 1, so the
    counter is [d + 1]; [parse_doc] starts it at 128 = [DN 127]. *)
Definition DN (d : nat) : N := N.of_nat d + 1.

Lemma enter_DN d : enter (DN (S d)) = Some (DN d).
Proof. unfold enter, DN. destruct (N.leb_spec (N.of_nat (S d) + 1) 1); [lia|]. f_equal. lia. Qed.

(** A number is read back only if what follows cannot continue the token.  [ends_num rest] is asked
    for every tree, so that one statement goes through the induction: in an array or object the
    rest after an element begins with [,], [\]] or [}] ([ends_num_close]), at the top it is empty. *)
Definition reads_back (d : nat) (t : jt) : Prop :=
  forall rest, ends_num rest -> exists f, pv f (DN d) (print t ++ rest) = Ok (t, rest).

Lemma ends_num_close c rest : c = 44 \/ c = 93 \/ c = 125 -> ends_num (c :: rest).
Proof. intros [-> | [-> | ->]]; cbn; repeat split; discriminate. Qed.

Lemma pv_quote f d r :
  pv (S f) d (34 :: r) = match pstr r [] with Ok (t, r') => Ok (TStr t, r') | _ => Err end.
Proof. reflexivity. Qed.

Lemma pv_open_arr f d s : head_ok s -> pv (S f) (DN (S d)) (91 :: s) = parr f (DN d) s [].
Proof.
  destruct s as [|c s]; [intros []|]. intros (Hw & H93 & _). apply N.eqb_neq in H93.
  cbn [pv skip_ws]. change (jws 91) with false. cbn [N.eqb Pos.eqb skip_ws].
  rewrite enter_DN, Hw, H93. reflexivity.
Qed.

Lemma pv_open_obj f d s : head_ok s -> pv (S f) (DN (S d)) (123 :: s) = pobj f (DN d) s [].
Proof.
  destruct s as [|c s]; [intros []|]. intros (Hw & _ & H125). apply N.eqb_neq in H125.
  cbn [pv skip_ws]. change (jws 123) with false. cbn [N.eqb Pos.eqb skip_ws].
  rewrite enter_DN, Hw, H125. reflexivity.
Qed.

Lemma parr_item f d s x tail acc : pv f d s = Ok (x, tail) ->
  parr (S f) d s acc
  = match skip_ws tail with
    | c :: r => if c =? 44 then parr f d r (x :: acc)
                else if c =? 93 then Ok (TArr (rev (x :: acc)), r) else Err
    | [] => Err
    end.
Proof. intros E. cbn [parr]. rewrite E. reflexivity. Qed.

Lemma parr_items d l : l <> [] -> Forall (fun x => simple d x /\ reads_back d x) l ->
  forall acc rest, exists f,
    parr f (DN d) (print_items (map print l) 93 ++ rest) acc = Ok (TArr (rev acc ++ l), rest).
Proof.
  induction l as [|x r IH]; [congruence|]. intros _ HF acc rest.
  inversion HF as [|? ? [_ Hx] HFr]; subst.
  destruct r as [|y r'].
  - destruct (Hx (93 :: rest) (ends_num_close 93 rest ltac:(auto))) as (f1 & E1).
    exists (S f1). cbn [map]. rewrite print_items_one, <- app_assoc, (parr_item _ _ _ _ _ _ E1). reflexivity.
  - destruct (Hx (44 :: print_items (map print (y :: r')) 93 ++ rest) (ends_num_close 44 _ ltac:(auto))) as (f1 & E1).
    destruct (IH ltac:(discriminate) HFr (x :: acc) rest) as (f2 & E2).
    exists (S (Nat.max f1 f2)). cbn [map]. rewrite print_items_cons, <- app_assoc.
    rewrite (parr_item _ _ _ _ _ _ (pv_fuel_le _ _ _ _ _ (Nat.le_max_l f1 f2) E1)).
    cbn [rev] in E2. rewrite <- app_assoc in E2. exact (parr_fuel_le _ _ _ _ _ _ (Nat.le_max_r f1 f2) E2).
Qed.

Lemma pobj_member f d k x tail acc : plain k -> pv f d (print x ++ tail) = Ok (x, tail) ->
  pobj (S f) d (print_member (k, x) ++ tail) acc
  = match skip_ws tail with
    | c :: r => if c =? 44 then pobj f d r ((k, x) :: acc)
                else if c =? 125 then Ok (TObj (rev ((k, x) :: acc)), r) else Err
    | [] => Err
    end.
Proof.
  intros Hk E. unfold print_member. cbn [pobj fst snd app skip_ws]. change (jws 34) with false. cbv iota.
  cbn [N.eqb Pos.eqb]. rewrite <- app_assoc. cbn [app]. rewrite (pstr_plain k [] _ Hk).
  cbn [rev app skip_ws]. change (jws 58) with false. cbv iota. cbn [N.eqb Pos.eqb]. rewrite E. reflexivity.
Qed.

Lemma pobj_items d l : l <> [] ->
  Forall (fun kv => plain (fst kv) /\ simple d (snd kv) /\ reads_back d (snd kv)) l ->
  forall acc rest, exists f,
    pobj f (DN d) (print_items (map print_member l) 125 ++ rest) acc = Ok (TObj (rev acc ++ l), rest).
Proof.
  induction l as [|[k x] r IH]; [congruence|]. intros _ HF acc rest.
  inversion HF as [|? ? (Hk & _ & Hx) HFr]; subst. cbn [fst snd] in *.
  destruct r as [|y r'].
  - destruct (Hx (125 :: rest) (ends_num_close 125 rest ltac:(auto))) as (f1 & E1).
    exists (S f1). cbn [map]. rewrite print_items_one, <- app_assoc, (pobj_member _ _ _ _ _ _ Hk E1). reflexivity.
  - destruct (Hx (44 :: print_items (map print_member (y :: r')) 125 ++ rest) (ends_num_close 44 _ ltac:(auto)))
      as (f1 & E1).
    destruct (IH ltac:(discriminate) HFr ((k, x) :: acc) rest) as (f2 & E2).
    exists (S (Nat.max f1 f2)). cbn [map]. rewrite print_items_cons, <- app_assoc.
    rewrite (pobj_member _ _ _ _ _ _ Hk (pv_fuel_le _ _ _ _ _ (Nat.le_max_l f1 f2) E1)).
    cbn [rev] in E2. rewrite <- app_assoc in E2. exact (pobj_fuel_le _ _ _ _ _ _ (Nat.le_max_r f1 f2) E2).
Qed.

Theorem print_parse_some_fuel : forall t d, simple d t -> reads_back d t.
Proof.
  apply (jt_ind' (fun t => forall d, simple d t -> reads_back d t)).
  - intros d _ rest _. exists 1%nat. reflexivity.
  - intros b d _ rest _. exists 1%nat. destruct b; reflexivity.
  - intros n d Hs rest Hr. exists 1%nat. destruct n as [n|z|ng m e]; cbn [simple print] in *.
    + rewrite <- (classify_u64 n Hs). exact (pv_signed_decimal 0 _ false n rest Hr).
    + replace (NumI z) with (classify true (Z.to_N (- z))) by (rewrite classify_i64 by lia; f_equal; lia).
      exact (pv_signed_decimal 0 _ true _ rest Hr).
    + destruct Hs.
  - intros s d Hs rest _. exists 1%nat. cbn [print app]. rewrite pv_quote, <- app_assoc.
    rewrite (pstr_plain s [] rest Hs : pstr (esc s ++ [34] ++ rest) [] = _). reflexivity.
  - intros l IHl d Hs rest Hr. destruct d as [|d]; [destruct Hs|].
    apply simple_arr in Hs. cbn [print app]. destruct l as [|x r].
    + exists 1%nat. cbn [pv map print_items app skip_ws]. rewrite enter_DN. reflexivity.
    + destruct (parr_items d (x :: r) ltac:(discriminate)) with (acc := @nil jt) (rest := rest) as (f & E).
      { eapply Forall_impl; [|exact (Forall_and Hs IHl)]. intros y [Hy IHy]. exact (conj Hy (IHy d Hy)). }
      exists (S f). rewrite pv_open_arr; [exact E|].
      apply head_ok_app, print_items_head_ok, (print_head_ok d), (Forall_inv Hs).
  - intros kvs IHl d Hs rest Hr. destruct d as [|d]; [destruct Hs|].
    apply simple_obj in Hs.
    rewrite print_obj. cbn [app].
    destruct kvs as [|kv r].
    + exists 1%nat. cbn [pv map print_items app skip_ws]. rewrite enter_DN. reflexivity.
    + destruct (pobj_items d (kv :: r) ltac:(discriminate)) with (acc := @nil (text * jt)) (rest := rest) as (f & E).
      { eapply Forall_impl; [|exact (Forall_and Hs IHl)]. intros y [[Hk Hy] IHy]. exact (conj Hk (conj Hy (IHy d Hy))). }
      exists (S f). rewrite pv_open_obj; [exact E|].
      apply head_ok_app, print_items_head_ok. cbn. repeat split; discriminate.
Qed.

Theorem parse_print t : simple 127 t -> parse_doc (print t) = Ok t.
Proof.
  intros Hs. destruct (print_parse_some_fuel t 127 Hs [] I) as (f & E). rewrite app_nil_r in E.
  change (DN 127) with 128 in E.
  unfold parse_doc. rewrite <- (pv_enough_fuel _ f), E; [reflexivity|apply le_n|rewrite E; discriminate].
Qed.

(** * White space before the document is irrelevant *)

Lemma skip_ws_app w s : all_ws w = true -> skip_ws (w ++ s) = skip_ws s.
Proof.
  induction w as [|c w IH]; intros H; [reflexivity|].
  cbn [all_ws forallb] in H. apply andb_true_iff in H as [Hc Hw].
  cbn [app skip_ws]. rewrite Hc. apply IH. exact Hw.
Qed.

Theorem parse_doc_leading_ws w s : all_ws w = true -> parse_doc (w ++ s) = parse_doc s.
Proof.
  intros Hw. unfold parse_doc. rewrite app_length.
  set (F := (2 * length s + 2)%nat).
  assert (E : pv (2 * (length w + length s) + 2) 128 (w ++ s) = pv (2 * (length w + length s) + 2) 128 s).
  { rewrite Nat.add_succ_r. cbn [pv]. rewrite (skip_ws_app w s Hw). reflexivity. }
  rewrite E, (pv_enough_fuel F); [reflexivity|apply le_n|apply pv_fueled; lia].
Qed.

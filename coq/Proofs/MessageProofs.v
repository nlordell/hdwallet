(** Proofs for C10 — the EIP-191 personal-message digest ([Model/Message.v]): the length of
    the decimal length field, and from it that the framing is unambiguous. *)
From Coq Require Import String.
From Coq Require Import List NArith Lia.
From HDW Require Import Lib.Bytes Lib.Decimal Model.Message.
Import ListNotations.
Open Scope N_scope.

Lemma decimal_0 : decimal 0 = [48].
Proof. reflexivity. Qed.

Lemma decimal_length_0 : length (decimal 0) = 1%nat.
Proof. reflexivity. Qed.

Lemma preimage_split m :
  preimage m = ([25] ++ s2l "Ethereum Signed Message:" ++ [10]) ++ decimal (N.of_nat (length m)) ++ m.
Proof. unfold preimage. rewrite <- !app_assoc. reflexivity. Qed.

Lemma preimage_injective m1 m2 : preimage m1 = preimage m2 -> m1 = m2.
Proof.
  intros H. rewrite !preimage_split in H. apply app_inv_head in H.
  assert (Hlen : length m1 = length m2).
  { pose proof (f_equal (@length N) H) as L. rewrite !app_length in L.
    pose proof (decimal_length_mono (N.of_nat (length m1)) (N.of_nat (length m2))).
    pose proof (decimal_length_mono (N.of_nat (length m2)) (N.of_nat (length m1))). lia. }
  rewrite Hlen in H. apply app_inv_head in H. exact H.
Qed.

(** Idempotence of the table-driven NFKD of [Prim/Nfkd.v]:  nfkd (nfkd t) = nfkd t.

    Three ingredients:
    - the decomposition table is CLOSED: every code point that occurs in a decomposition
      (table entry, or the jamo of a Hangul syllable) decomposes to itself.  For the 5795
      table entries this is a finite computation over [PositiveMap.elements decomp_map]; for
      Hangul it is a computation over the code points U+1100 .. U+11C2, where all jamo lie;
    - canonical reordering only permutes its input;
    - canonical reordering is idempotent: its output has no adjacent pair (a, b) with
      ccc a > ccc b > 0, and it is the identity on such lists.

    Used by [Props/C02k.v]: the seed depends on the passphrase only through its normal form. *)
From Coq Require Import List NArith Bool FMapPositive Sorted Permutation Lia.
From HDW Require Import Lib.Bytes Prim.NfkdTable Prim.Nfkd.
Import ListNotations.
Local Open Scope N_scope.

(** * The decomposition is closed *)

Lemma table_closed :
  forallb (fun kv => forallb stable (snd kv)) (PositiveMap.elements decomp_map) = true.
Proof. vm_compute. reflexivity. Qed.

Lemma table_entry_stable k ds d :
  PositiveMap.find k decomp_map = Some ds -> In d ds -> stable d = true.
Proof.
  intros Hf Hd. apply PositiveMap.elements_correct in Hf.
  pose proof table_closed as H. rewrite forallb_forall in H.
  specialize (H (k, ds) Hf). cbn [snd] in H. rewrite forallb_forall in H. apply H. exact Hd.
Qed.

(** the leading, vowel and trailing jamo of a syllable all lie in U+1100 .. U+11C2 *)
Lemma hangul_jamo_range c d :
  is_hangul_syllable c = true -> In d (decomp_hangul c) -> hangul_LBase <= d < hangul_LBase + 195.
Proof.
  unfold is_hangul_syllable, decomp_hangul, hangul_SBase, hangul_SCount, hangul_LBase, hangul_VBase,
    hangul_TBase, hangul_NCount, hangul_TCount. intros Hc Hd. cbv zeta in Hd.
  destruct (_ =? 0); cbn [In] in Hd; lia.
Qed.

Lemma jamo_stable : forallb (fun i => stable (hangul_LBase + N.of_nat i)) (seq 0 195) = true.
Proof. vm_compute. reflexivity. Qed.

Lemma hangul_stable c d :
  is_hangul_syllable c = true -> In d (decomp_hangul c) -> stable d = true.
Proof.
  intros Hc Hd. exact (forallb_seq_N stable hangul_LBase 195 d jamo_stable (hangul_jamo_range c d Hc Hd)).
Qed.

Lemma decomp_closed c d : In d (decomp c) -> decomp d = [d].
Proof.
  intros Hd. apply stable_spec. revert Hd. unfold decomp at 1.
  destruct (PositiveMap.find (N.succ_pos c) decomp_map) as [ds|] eqn:Hf.
  - intros Hd. exact (table_entry_stable _ _ _ Hf Hd).
  - destruct (is_hangul_syllable c) eqn:Hh.
    + intros Hd. exact (hangul_stable c d Hh Hd).
    + intros [Hd|[]]. subst d. apply stable_spec. unfold decomp. rewrite Hf, Hh. reflexivity.
Qed.

(** * Reordering permutes *)

Lemma ins_mark_perm c run : Permutation (ins_mark c run) (c :: run).
Proof.
  induction run as [|d r IH]; cbn [ins_mark]; [reflexivity|].
  destruct (ccc c <? ccc d); [reflexivity|]. rewrite IH. apply perm_swap.
Qed.

Lemma reorder_go_perm l : forall run, Permutation (reorder_go run l) (run ++ l).
Proof.
  induction l as [|c r IH]; intros run; cbn [reorder_go].
  - rewrite app_nil_r. reflexivity.
  - destruct (ccc c =? 0).
    + rewrite (IH []). reflexivity.
    + rewrite IH, ins_mark_perm. apply Permutation_middle.
Qed.

Lemma In_reorder x l : In x (reorder l) -> In x l.
Proof. apply Permutation_in, (reorder_go_perm l []). Qed.

(** * Reordering is idempotent *)

Definition le_ccc (a b : N) : Prop := ccc a <= ccc b.
Definition nz (a : N) : Prop := ccc a <> 0.

(** canonically ordered: no adjacent (a, b) with ccc a > ccc b > 0 *)
Inductive canon : list N -> Prop :=
| canon_nil : canon []
| canon_one a : canon [a]
| canon_cons a b l : (ccc b = 0 \/ ccc a <= ccc b) -> canon (b :: l) -> canon (a :: b :: l).

Lemma canon_tail a l : canon (a :: l) -> canon l.
Proof. intros H. inversion H; subst; [constructor|assumption]. Qed.

Lemma canon_app_r l1 l2 : canon (l1 ++ l2) -> canon l2.
Proof.
  induction l1 as [|a l1 IH]; cbn [app]; intros H; [exact H|].
  apply IH. exact (canon_tail _ _ H).
Qed.

Lemma sorted_canon run : StronglySorted le_ccc run -> canon run.
Proof.
  induction run as [|a [|b r] IH]; intros H; [constructor|constructor|].
  inversion H as [|x y Hs Hf]; subst. constructor.
  - right. inversion Hf; subst. assumption.
  - apply IH. exact Hs.
Qed.

(** a starter may follow anything *)
Lemma canon_app_starter l1 c l2 : canon l1 -> ccc c = 0 -> canon (c :: l2) -> canon (l1 ++ c :: l2).
Proof.
  intros H1 Hc H2. induction l1 as [|a [|a' r] IH]; cbn [app].
  - exact H2.
  - constructor; [left; exact Hc|exact H2].
  - inversion H1; subst. constructor; [assumption|]. apply IH. assumption.
Qed.

Lemma ins_mark_sorted c run :
  StronglySorted le_ccc run -> StronglySorted le_ccc (ins_mark c run).
Proof.
  induction run as [|d r IH]; intros H; cbn [ins_mark].
  - constructor; constructor.
  - inversion H as [|x y Hs Hf]; subst.
    destruct (ccc c <? ccc d) eqn:Hlt.
    + apply N.ltb_lt in Hlt. constructor; [exact H|].
      constructor; [unfold le_ccc; lia|].
      eapply Forall_impl; [|exact Hf]. unfold le_ccc. intros e He. lia.
    + apply N.ltb_ge in Hlt. constructor; [apply IH; exact Hs|].
      apply (Permutation_Forall (Permutation_sym (ins_mark_perm c r))). constructor; assumption.
Qed.

Lemma ins_mark_nz c run : nz c -> Forall nz run -> Forall nz (ins_mark c run).
Proof.
  intros Hc Hr. apply (Permutation_Forall (Permutation_sym (ins_mark_perm c run))).
  constructor; assumption.
Qed.

Lemma reorder_go_canon l : forall run,
  StronglySorted le_ccc run -> canon (reorder_go run l).
Proof.
  induction l as [|c r IH]; intros run Hs; cbn [reorder_go].
  - apply sorted_canon. exact Hs.
  - destruct (N.eqb_spec (ccc c) 0) as [Hc|_]; [|apply IH, ins_mark_sorted, Hs].
    apply canon_app_starter; [apply sorted_canon, Hs|exact Hc|].
    specialize (IH [] (SSorted_nil _)).
    destruct (reorder_go [] r) as [|b rest]; constructor; [right; lia|exact IH].
Qed.

(** in canonically ordered input a mark is not below any mark of the run before it ... *)
Lemma sorted_le_next run c r :
  StronglySorted le_ccc run -> canon (run ++ c :: r) -> ccc c <> 0 ->
  Forall (fun d => ccc d <= ccc c) run.
Proof.
  induction run as [|d [|d' run'] IH]; intros Hs Hc Hnz.
  - constructor.
  - constructor; [|constructor]. cbn [app] in Hc.
    inversion Hc as [| |? ? ? [H|H]]; subst; [contradiction|exact H].
  - inversion Hs as [|x y Hs' Hf]; subst.
    assert (Hrec : Forall (fun e => ccc e <= ccc c) (d' :: run')).
    { apply IH; [exact Hs'| |exact Hnz]. cbn [app] in Hc. exact (canon_tail _ _ Hc). }
    constructor; [|exact Hrec].
    inversion Hrec; subst. inversion Hf; subst. unfold le_ccc in *. lia.
Qed.

(** ... so it is inserted at the end of the run, which stays sorted *)
Lemma ins_mark_at_end c run :
  Forall (fun d => ccc d <= ccc c) run -> ins_mark c run = run ++ [c].
Proof.
  induction run as [|d r IH]; intros H; cbn [ins_mark app]; [reflexivity|].
  inversion H; subst.
  replace (ccc c <? ccc d) with false by lia. f_equal. apply IH. assumption.
Qed.

Lemma reorder_go_fix l : forall run,
  StronglySorted le_ccc run -> canon (run ++ l) -> reorder_go run l = run ++ l.
Proof.
  induction l as [|c r IH]; intros run Hs Hc; cbn [reorder_go].
  - rewrite app_nil_r. reflexivity.
  - destruct (N.eqb_spec (ccc c) 0) as [Hz|Hz].
    + f_equal. f_equal. apply (IH [] (SSorted_nil _)).
      cbn [app]. apply canon_app_r in Hc. exact (canon_tail _ _ Hc).
    + pose proof (ins_mark_sorted c run Hs) as Hs'.
      rewrite (ins_mark_at_end c run (sorted_le_next run c r Hs Hc Hz)) in *.
      rewrite IH, <- app_assoc; [reflexivity|exact Hs'|rewrite <- app_assoc; exact Hc].
Qed.

Lemma reorder_canon l : canon (reorder l).
Proof. apply reorder_go_canon. constructor. Qed.

Lemma reorder_idem l : reorder (reorder l) = reorder l.
Proof.
  unfold reorder at 1. rewrite (reorder_go_fix (reorder l) [] (SSorted_nil _)); [reflexivity|].
  cbn [app]. apply reorder_canon.
Qed.

(** * NFKD is idempotent *)

Lemma nfkd_output_stable t d : In d (nfkd t) -> decomp d = [d].
Proof.
  unfold nfkd. intros Hd. apply In_reorder, in_flat_map in Hd as (c & _ & Hd).
  exact (decomp_closed c d Hd).
Qed.

Theorem nfkd_idempotent t : nfkd (nfkd t) = nfkd t.
Proof.
  unfold nfkd at 1. rewrite (flat_map_decomp_stable (nfkd t) (nfkd_output_stable t)).
  unfold nfkd. apply reorder_idem.
Qed.

(** the output is in canonical order and fully decomposed *)
Theorem nfkd_normal_form t :
  canon (nfkd t) /\ forall d, In d (nfkd t) -> decomp d = [d].
Proof. split; [apply reorder_canon|apply nfkd_output_stable]. Qed.

(** Helper lemmas for the companion property files [Props/C01k.v] ... [Props/C16k.v]: facts
    about the model instantiated with the executable primitives of [Prim/] (the instantiation
    that the drivers in [Run/] evaluate).  Only the length / byte-range / ASCII lemmas that
    [Prim/] proves by list reasoning are used; no Uint63 specification axiom. *)
From Coq Require Import String.
From Coq Require Import List NArith Bool Lia.
From HDW Require Import Lib.Outcome Lib.Bytes.
From HDW Require Import Prim.Sha256 Prim.Pbkdf2 Prim.Nfkd.
From HDW Require Import Model.Wordlist Model.Bip39 Spec.Bip39Spec Model.Seed.
From HDW Require Import Proofs.WordlistProofs Proofs.Bip39Proofs Proofs.EntropyProofs.
Import ListNotations.
Open Scope N_scope.

(** english.txt is every word followed by a line feed.  The embedded list, written out again in
    that format and hashed with [Prim.Sha256.sha256], gives the published digest of the
    official BIP-39 english.txt (2f5eed53...3b24dbda) — so the 2048 words of
    [Model/Wordlist.v], in this order, are the official ones (up to a SHA-256 collision, and
    given that [Prim.Sha256.sha256] is SHA-256, which the correspondence check tests). *)
Lemma wordlist_regenerated_digest :
  sha256 (flat_map (fun w => utf8 w ++ [10]) wordlist) =
  [0x2f; 0x5e; 0xed; 0x53; 0xa4; 0x72; 0x7b; 0x4b; 0xf8; 0x88; 0x0d; 0x8f; 0x3f; 0x19; 0x9e; 0xfc;
   0x90; 0xe5; 0x85; 0x03; 0x64; 0x6d; 0x9f; 0xf8; 0xef; 0xf3; 0xa2; 0xed; 0x3b; 0x24; 0xdb; 0xda].
Proof. vm_compute. reflexivity. Qed.

Lemma wordlist_regenerated_digest_recorded :
  sha256 (flat_map (fun w => utf8 w ++ [10]) wordlist) = wordlist_file_sha256.
Proof. rewrite wordlist_regenerated_digest. symmetry. exact wordlist_digest_official. Qed.

Lemma word_ascii i : all_ascii (word i).
Proof.
  unfold word. destruct (nth_in_or_default (N.to_nat i) wordlist []) as [Hin|Hd].
  - pose proof wordlist_lower_ascii as H. rewrite Forall_forall in H. specialize (H _ Hin).
    unfold lower_ascii_word in H. unfold all_ascii. eapply Forall_impl; [|exact H].
    intros c Hc. cbv beta in Hc. lia.
  - rewrite Hd. constructor.
Qed.

Lemma join_space_ascii l : Forall all_ascii l -> all_ascii (Bip39.join [32] l).
Proof.
  induction 1 as [|w r Hw _ IH]; [constructor|].
  destruct r as [|w2 r2]; [exact Hw|].
  change (Bip39.join [32] (w :: w2 :: r2)) with (w ++ 32 :: Bip39.join [32] (w2 :: r2)).
  apply Forall_app. split; [exact Hw|]. constructor; [reflexivity|exact IH].
Qed.

Lemma words_ascii l : all_ascii (Bip39.join [32] (map word l)).
Proof.
  apply join_space_ascii, Forall_forall. intros w Hw.
  apply in_map_iff in Hw as [i [<- _]]. apply word_ascii.
Qed.

Lemma bip39_phrase_ascii (h : bytes -> bytes) ent : all_ascii (bip39_phrase h ent).
Proof. apply words_ascii. Qed.

(** the phrase printed for an accepted input is ASCII (its words are list words) *)
Lemma parsed_phrase_ascii t m : from_phrase sha256 t = Ok m -> all_ascii (Bip39.join [32] (split_ws t)).
Proof.
  intros H. destruct (parse_value sha256 sha256_length sha256_ok t m H) as (ent & _ & _ & -> & _).
  apply words_ascii.
Qed.

Lemma salt_ascii pw : all_ascii pw -> all_ascii (s2l "mnemonic" ++ pw).
Proof. intros H. unfold all_ascii in *. apply Forall_app. split; [exact all_ascii_mnemonic|exact H]. Qed.

(** an ASCII passphrase is used as it is: the salt bytes are "mnemonic" followed by it *)
Lemma seed_ascii_passphrase m pw : all_ascii pw ->
  seed pbkdf2_hmac_sha512 nfkd m pw
  = bind (to_phrase m) (fun phrase => Ok (pbkdf2_hmac_sha512 (utf8 phrase) (s2l "mnemonic" ++ pw) 2048 64%nat)).
Proof.
  intros H. unfold seed, salt_text.
  rewrite (nfkd_ascii _ (salt_ascii pw H)), (utf8_ascii _ (salt_ascii pw H)). reflexivity.
Qed.

(** for an accepted phrase and an ASCII passphrase everything is bytes = code points *)
Lemma seed_of_phrase_ascii t m pw : from_phrase sha256 t = Ok m -> all_ascii pw ->
  seed pbkdf2_hmac_sha512 nfkd m pw
  = Ok (pbkdf2_hmac_sha512 (Bip39.join [32] (split_ws t)) (s2l "mnemonic" ++ pw) 2048 64%nat).
Proof.
  intros Hm Hpw. rewrite (seed_ascii_passphrase m pw Hpw).
  rewrite (canonical sha256 sha256_length sha256_ok t m Hm). cbn [bind].
  rewrite (utf8_ascii _ (parsed_phrase_ascii t m Hm)). reflexivity.
Qed.

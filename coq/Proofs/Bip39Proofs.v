(** Proofs for property C01: [from_phrase] / [to_phrase] against the BIP-39 specification.

    Both sides are read as numbers.  The specification's [bip39_value ent] is the entropy
    followed by [cs] checksum bits; its base-2048 digits are the word indices, and
    [leading_entropy] undoes this ([leading_entropy_indices], [checksum_iff]).  The parser's
    loop leaves exactly [leading_entropy] of the indices in its buffer ([unpack_phrase]), so a
    phrase is refused or is the phrase of its entropy ([from_phrase_cases]); the printer reads
    the same digits out of the 64-byte buffer ([word_index_ok]). *)
From Coq Require Import String.
From Coq Require Import List NArith Lia Bool PeanoNat.
From HDW Require Import Lib.Outcome Lib.Radix Lib.Bits Lib.Bytes Model.Bip39 Spec.Bip39Spec
  Proofs.WordlistProofs Proofs.Bip39Unpack.
Import ListNotations.
Open Scope N_scope.

Lemma pow2048 k : 2048 ^ k = 2 ^ (11 * k).
Proof. change 2048 with (2 ^ 11). rewrite <- N.pow_mul_r. reflexivity. Qed.

(** a number below [q] followed by a digit below [p] stays below [q * p] *)
Lemma shift_add_lt e c p q : e < q -> c < p -> e * p + c < q * p.
Proof. nia. Qed.

(** * Splitting and joining *)

Lemma split_go_word w : Forall (fun c => is_whitespace c = false) w ->
  forall r cur, split_go (w ++ r) cur = split_go r (cur ++ w).
Proof.
  induction 1 as [|c w Hc _ IH]; intros r cur.
  - rewrite app_nil_r. reflexivity.
  - cbn [app split_go]. rewrite Hc. rewrite IH. rewrite <- app_assoc. reflexivity.
Qed.

Lemma split_join ws : Forall nonempty_no_ws ws -> split_ws (join [32] ws) = ws.
Proof.
  unfold split_ws. induction 1 as [|w r [Hne Hw] Hr IH]; [reflexivity|].
  destruct r as [|w' r'].
  - cbn [join]. rewrite <- (app_nil_r w) at 1. rewrite split_go_word by exact Hw.
    cbn [app split_go]. destruct w; [congruence|reflexivity].
  - change (join [32] (w :: w' :: r')) with (w ++ [32] ++ join [32] (w' :: r')).
    rewrite split_go_word by exact Hw. cbn [app split_go].
    change (is_whitespace 32) with true. cbv iota. rewrite IH.
    destruct w; [congruence|reflexivity].
Qed.

(** * The sizes *)

(** BIP-39's table by its number [cs] of checksum bits: [n] words spell [len] entropy bytes.
    Every size formula of the model and of the specification is linear arithmetic over this. *)
Definition tbl (n len : nat) (cs : N) : Prop :=
  4 <= cs <= 8 /\ N.of_nat n = 3 * cs /\ N.of_nat len = 4 * cs.

Lemma tbl_valid n len cs : tbl n len cs -> valid_word_count n /\ valid_ent_len len.
Proof. unfold tbl, valid_word_count, valid_ent_len. lia. Qed.

Lemma valid_ent_tbl len : valid_ent_len len -> exists n cs, tbl n len cs.
Proof.
  intros H. exists (len * 3 / 4)%nat, (N.of_nat len / 4). unfold tbl, valid_ent_len in *. lia.
Qed.

Lemma valid_word_count_dec n : valid_word_count n \/ ~ valid_word_count n.
Proof. unfold valid_word_count. lia. Qed.

Lemma tbl_room n len cs : tbl n len cs ->
  (len <= 64)%nat /\ 11 * N.of_nat n <= 8 * N.of_nat len + 8.
Proof. unfold tbl. lia. Qed.

Lemma tbl_cs_bits n len cs : tbl n len cs -> cs_bits len = cs.
Proof. unfold tbl, cs_bits. lia. Qed.

Lemma tbl_ms_words n len cs : tbl n len cs -> ms_words len = n.
Proof. unfold tbl, ms_words, cs_bits. lia. Qed.

Lemma leading_entropy_eq len cs l : tbl (length l) len cs ->
  leading_entropy l = be_fixed len (of_digits 2048 l / 2 ^ cs).
Proof.
  intros Ht. unfold leading_entropy, tbl in *. cbv zeta. f_equal; [|f_equal; f_equal]; lia.
Qed.

Lemma leading_entropy_shape len cs l : tbl (length l) len cs -> digits_ok 2048 l ->
  bytes_ok (leading_entropy l) /\ length (leading_entropy l) = len
  /\ be_val (leading_entropy l) = of_digits 2048 l / 2 ^ cs.
Proof.
  intros Ht Hd. rewrite (leading_entropy_eq len cs l Ht).
  split; [apply be_fixed_ok|]. split; [apply be_fixed_length|]. apply be_val_fixed.
  apply N.div_lt_upper_bound; [apply pow2_nz|]. rewrite pow256, <- N.pow_add_r.
  replace (cs + 8 * N.of_nat len) with (11 * N.of_nat (length l)) by (unfold tbl in Ht; lia).
  rewrite <- pow2048. apply of_digits_bound, Hd.
Qed.

Lemma mnemonic_length_mk sha256 n cs ent : tbl n (length ent) cs ->
  mnemonic_length (mk_mnemonic sha256 ent) = n.
Proof. unfold mnemonic_length, mk_mnemonic, tbl. cbn [m_len]. lia. Qed.

Lemma byte_len_supported L n :
  byte_len L = Ok n <-> (valid_word_count L /\ n = (L * 4 / 3)%nat).
Proof.
  unfold byte_len, valid_word_count. destruct (_ || _) eqn:E; split.
  - intros [= <-]. lia.
  - intros [_ ->]. f_equal. lia.
  - discriminate.
  - lia.
Qed.

Lemma byte_len_unsupported L : ~ valid_word_count L -> byte_len L = Err.
Proof.
  unfold byte_len, valid_word_count. intros H. destruct (_ || _) eqn:E; [lia|reflexivity].
Qed.

Lemma byte_len_tbl L n : byte_len L = Ok n -> exists cs, tbl L n cs.
Proof.
  intros H. apply byte_len_supported in H as [V ->]. exists (N.of_nat L / 3).
  unfold tbl, valid_word_count in *. lia.
Qed.

Lemma byte_len_valid n : valid_word_count n -> exists len cs, byte_len n = Ok len /\ tbl n len cs.
Proof.
  intros V. assert (E : byte_len n = Ok (n * 4 / 3)%nat) by (apply byte_len_supported; auto).
  destruct (byte_len_tbl _ _ E) as [cs Ht]. eauto.
Qed.

Lemma byte_len_valid_ent L n : byte_len L = Ok n -> valid_ent_len n.
Proof. intros H. destruct (byte_len_tbl _ _ H) as [cs Ht]. apply (tbl_valid _ _ _ Ht). Qed.

(** under the table the loop never panics, and ends with the [cs] checksum bits pending and the
    entropy bytes written *)
Lemma unpack_phrase len cs ws : tbl (length ws) len cs ->
  unpack_loop len ws (0, 0, []) =
    match lookup_all ws with
    | None => Err
    | Some l => Ok (of_digits 2048 l mod 2 ^ 64, cs, leading_entropy l)
    end.
Proof.
  intros Ht. pose proof (unpack_loop_top len ws (proj2 (tbl_room _ _ _ Ht))) as HU.
  destruct (lookup_all ws) as [l|] eqn:Hl; [|exact HU].
  destruct HU as ([[acc bo] out] & -> & HI).
  apply Inv_iff in HI as (Hbo & Hbo1 & -> & W & Hcount).
  assert (bo = cs /\ length out = len) as [-> Hlo] by (unfold tbl in Ht; lia).
  rewrite <- (lookup_all_length ws l Hl) in Ht. rewrite (leading_entropy_eq len cs l Ht).
  destruct W as [<- Hok]. rewrite <- Hlo, be_fixed_val by exact Hok. reflexivity.
Qed.

Section WithSha256.
Variable sha256 : bytes -> bytes.
Hypothesis sha256_length : forall x, length (sha256 x) = 32%nat.
Hypothesis sha256_ok : forall x, bytes_ok (sha256 x).
(* Lemmas proved with [Proof using Type] need neither hypothesis; every other one needs both. *)

Notation h0 ent := (nth 0 (sha256 ent) 0).

Lemma sha256_cons x : exists h r, sha256 x = h :: r /\ h < 256 /\ length r = 31%nat /\ bytes_ok r.
Proof.
  pose proof (sha256_length x) as L. pose proof (sha256_ok x) as O.
  destruct (sha256 x) as [|h r]; [discriminate|]. inversion O; subst.
  exists h, r. cbn [length] in L. repeat split; auto; lia.
Qed.

Lemma h0_lt x : h0 x < 256.
Proof. destruct (sha256_cons x) as (h & r & -> & Hh & _). exact Hh. Qed.

Lemma checksum_lt x cs : cs <= 8 -> h0 x / 2 ^ (8 - cs) < 2 ^ cs.
Proof.
  intros Hcs. apply N.div_lt_upper_bound; [apply pow2_nz|].
  rewrite <- N.pow_add_r. replace (8 - cs + cs) with 8 by lia. apply h0_lt.
Qed.

(** * Entropy to indices, and back *)

Lemma bip39_value_eq n cs ent : tbl n (length ent) cs ->
  bip39_value sha256 ent = be_val ent * 2 ^ cs + h0 ent / 2 ^ (8 - cs).
Proof using Type. intros Ht. unfold bip39_value. rewrite (tbl_cs_bits _ _ _ Ht). reflexivity. Qed.

Lemma bip39_indices_length n cs ent : tbl n (length ent) cs -> length (bip39_indices sha256 ent) = n.
Proof using Type.
  intros Ht. unfold bip39_indices. rewrite to_digits_fixed_length. apply (tbl_ms_words _ _ _ Ht).
Qed.

Lemma bip39_indices_ok ent : digits_ok 2048 (bip39_indices sha256 ent).
Proof using Type. apply to_digits_fixed_ok. discriminate. Qed.

(** [MS] base-2048 digits hold the [ENT + CS] bits *)
Lemma bip39_indices_value ent : bytes_ok ent -> valid_ent_len (length ent) ->
  of_digits 2048 (bip39_indices sha256 ent) = bip39_value sha256 ent.
Proof.
  intros Hok Hv. destruct (valid_ent_tbl _ Hv) as (n & cs & Ht).
  unfold bip39_indices. rewrite (tbl_ms_words _ _ _ Ht).
  apply of_to_digits_fixed_small; [discriminate|]. rewrite (bip39_value_eq n cs ent Ht), pow2048.
  replace (11 * N.of_nat n) with (8 * N.of_nat (length ent) + cs) by (unfold tbl in Ht; lia).
  rewrite N.pow_add_r, <- pow256.
  apply shift_add_lt; [apply be_val_bound, Hok|apply checksum_lt; unfold tbl in Ht; lia].
Qed.

Lemma leading_entropy_indices ent : bytes_ok ent -> valid_ent_len (length ent) ->
  leading_entropy (bip39_indices sha256 ent) = ent.
Proof.
  intros Hok Hv. destruct (valid_ent_tbl _ Hv) as (n & cs & Ht).
  rewrite (leading_entropy_eq (length ent) cs) by (rewrite (bip39_indices_length n cs ent Ht); exact Ht).
  rewrite bip39_indices_value, (bip39_value_eq n cs ent Ht) by assumption.
  rewrite N.div_add_l by apply pow2_nz.
  rewrite N.div_small, N.add_0_r by (apply checksum_lt; unfold tbl in Ht; lia).
  apply be_fixed_val, Hok.
Qed.

(** indices are the encoding of the entropy they start with iff their last [cs] bits are its
    checksum: the test [from_words] makes *)
Lemma checksum_iff len cs l : tbl (length l) len cs -> digits_ok 2048 l ->
  h0 (leading_entropy l) / 2 ^ (8 - cs) = of_digits 2048 l mod 2 ^ cs
  <-> bip39_indices sha256 (leading_entropy l) = l.
Proof.
  intros Ht Hd. destruct (leading_entropy_shape len cs l Ht Hd) as (Hok & Hl & Hv).
  rewrite <- Hl in Ht. pose proof (bip39_value_eq _ cs _ Ht) as EV. rewrite Hv in EV. split.
  - intros Hc. unfold bip39_indices. rewrite (tbl_ms_words _ _ _ Ht), EV, Hc.
    rewrite (N.mul_comm (_ / _)), <- N.div_mod by apply pow2_nz.
    apply to_of_digits_fixed; [discriminate|exact Hd].
  - intros Hi. rewrite <- Hi at 2.
    rewrite (bip39_indices_value _ Hok (proj2 (tbl_valid _ _ _ Ht))), EV.
    rewrite N.add_comm, N.mod_add by apply pow2_nz. symmetry. apply N.mod_small.
    apply checksum_lt. unfold tbl in Ht. lia.
Qed.

(** * [from_phrase] *)

Lemma from_words_eq len cs ws : tbl (length ws) len cs ->
  from_words sha256 len ws =
    match lookup_all ws with
    | None => Err
    | Some l => if h0 (leading_entropy l) / 2 ^ (8 - cs) =? of_digits 2048 l mod 2 ^ cs
                then Ok (mk_mnemonic sha256 (leading_entropy l)) else Err
    end.
Proof.
  intros Ht. unfold from_words. rewrite (unpack_phrase len cs ws Ht).
  rewrite (proj2 (Nat.ltb_ge 64 len)) by (unfold tbl in Ht; lia).
  destruct (lookup_all ws) as [l|] eqn:Hl; [|reflexivity]. cbn [bind].
  rewrite <- (lookup_all_length ws l Hl) in *.
  destruct (leading_entropy_shape len cs l Ht (proj1 (lookup_all_ok ws l Hl))) as (_ & Hlen & _).
  destruct Ht as (Hcs & Hwords & Hbytes).
  (* the guards against panics: the two debug assertions, the buffer size, the shift amounts *)
  rewrite (proj2 (N.eqb_eq _ _)) by lia.
  rewrite Hlen, Nat.eqb_refl, (proj2 (Nat.ltb_ge 32 len)) by lia.
  rewrite (proj2 (N.ltb_ge 8 cs)), (proj2 (N.eqb_neq cs 0)) by lia. cbn [negb orb].
  (* the checksum test: [acc]'s low [cs] bits are those of the whole number, and fit a byte *)
  rewrite N.shiftr_div_pow2, land_mask, mod_pow2_mod by lia.
  rewrite (N.mod_small _ 256).
  - unfold mk_mnemonic. rewrite Hlen. reflexivity.
  - apply N.lt_le_trans with (2 ^ cs); [apply N.mod_lt, pow2_nz|].
    change 256 with (2 ^ 8). apply N.pow_le_mono_r; [discriminate|lia].
Qed.

Lemma from_phrase_invalid_count t : ~ valid_word_count (length (split_ws t)) -> from_phrase sha256 t = Err.
Proof using Type. intros H. unfold from_phrase. rewrite byte_len_unsupported by exact H. reflexivity. Qed.

(** [from_words_eq] as the results below take it: the right-hand side is a term, so the test is
    boolean; [list_eqb_spec] reads it as "[l] are the indices of its own leading entropy". *)
Lemma from_phrase_valid t : valid_word_count (length (split_ws t)) ->
  from_phrase sha256 t =
    match lookup_all (split_ws t) with
    | None => Err
    | Some l => if list_eqb (bip39_indices sha256 (leading_entropy l)) l
                then Ok (mk_mnemonic sha256 (leading_entropy l)) else Err
    end.
Proof.
  intros Hv. unfold from_phrase.
  destruct (byte_len_valid _ Hv) as (len & cs & -> & Ht). cbn [bind].
  rewrite (from_words_eq len cs _ Ht).
  destruct (lookup_all (split_ws t)) as [l|] eqn:Hl; [|reflexivity].
  rewrite <- (lookup_all_length _ l Hl) in Ht.
  pose proof (checksum_iff len cs l Ht (proj1 (lookup_all_ok _ l Hl))) as Hiff.
  destruct (N.eqb_spec (h0 (leading_entropy l) / 2 ^ (8 - cs)) (of_digits 2048 l mod 2 ^ cs)) as [Hc|Hc].
  - rewrite (proj1 Hiff Hc), list_eqb_refl. reflexivity.
  - rewrite list_eqb_false by tauto. reflexivity.
Qed.

(** every phrase is refused, or is the phrase of some entropy and parses to its mnemonic *)
Lemma from_phrase_cases t :
  from_phrase sha256 t = Err \/
  exists ent, bytes_ok ent /\ valid_ent_len (length ent)
    /\ split_ws t = map word (bip39_indices sha256 ent)
    /\ from_phrase sha256 t = Ok (mk_mnemonic sha256 ent).
Proof.
  destruct (valid_word_count_dec (length (split_ws t))) as [Hv|Hv].
  2:{ left. apply from_phrase_invalid_count, Hv. }
  rewrite (from_phrase_valid t Hv).
  destruct (lookup_all (split_ws t)) as [l|] eqn:El; [|left; reflexivity].
  destruct (list_eqb _ l) eqn:Hi; [right|left; reflexivity]. apply list_eqb_spec in Hi.
  destruct (byte_len_valid _ Hv) as (len & cs & _ & Ht). rewrite <- (lookup_all_length _ l El) in Ht.
  destruct (lookup_all_ok _ l El) as [Hd Hw].
  destruct (leading_entropy_shape len cs l Ht Hd) as (Hok & Hlen & _).
  exists (leading_entropy l). rewrite Hlen, Hi, Hw.
  split; [exact Hok|]. split; [apply (tbl_valid _ _ _ Ht)|]. split; reflexivity.
Qed.

Lemma accept_complete t ent : bytes_ok ent -> valid_ent_len (length ent) ->
  split_ws t = map word (bip39_indices sha256 ent) -> from_phrase sha256 t = Ok (mk_mnemonic sha256 ent).
Proof.
  intros Hok Hv Hs. destruct (valid_ent_tbl _ Hv) as (n & cs & Ht).
  rewrite from_phrase_valid, Hs.
  - rewrite lookup_all_words by apply bip39_indices_ok.
    rewrite (leading_entropy_indices ent Hok Hv), list_eqb_refl. reflexivity.
  - rewrite Hs, map_length, (bip39_indices_length n cs ent Ht). apply (tbl_valid _ _ _ Ht).
Qed.

Lemma parse_value t m : from_phrase sha256 t = Ok m ->
  exists ent, bytes_ok ent /\ valid_ent_len (length ent)
    /\ split_ws t = map word (bip39_indices sha256 ent) /\ m = mk_mnemonic sha256 ent.
Proof.
  intros H. destruct (from_phrase_cases t) as [E|(ent & Hok & Hv & Hs & E)]; rewrite E in H; [discriminate|].
  injection H as <-. eauto.
Qed.

Lemma total t : graceful (from_phrase sha256 t).
Proof.
  destruct (from_phrase_cases t) as [->|(ent & _ & _ & _ & ->)]; [apply graceful_err|apply graceful_ok].
Qed.

Lemma roundtrip ent : bytes_ok ent -> valid_ent_len (length ent) ->
  from_phrase sha256 (bip39_phrase sha256 ent) = Ok (mk_mnemonic sha256 ent).
Proof.
  intros Hok Hv. apply accept_complete; try assumption.
  unfold bip39_phrase. apply split_join, Forall_map.
  eapply Forall_impl; [|apply bip39_indices_ok]. exact word_nonempty_no_ws.
Qed.

(** * [to_phrase]: the 64-byte buffer read 11 bits at a time *)

(** Word [i] of a 64-byte buffer is its bits [11 i .. 11 i + 10] from the top: the value divided
    by [2 ^ (512 - 11 (i + 1))], mod [2 ^ 11].  They are read from the 8 bytes at [11 i / 8];
    [i = 41] is the last index whose window ends inside the buffer ([11 * 41 / 8 + 8 = 64]). *)
Lemma word_index_at_bits m i : length (m_buf m) = 64%nat -> bytes_ok (m_buf m) -> (i <= 41)%nat ->
  word_index_at m i = Ok ((be_val (m_buf m) / 2 ^ (501 - 11 * N.of_nat i)) mod 2048).
Proof using Type.
  intros Lb Ob Hi. unfold word_index_at.
  set (o := N.of_nat i * 11 / 8). set (r := (N.of_nat i * 11) mod 8).
  assert (Hor : N.of_nat i * 11 = 8 * o + r /\ r < 8) by (unfold o, r; lia). clearbody o r.
  rewrite (proj2 (N.ltb_ge 64 (o + 8))) by lia. f_equal.
  rewrite be_val_window, Lb by (assumption || lia).
  change (256 ^ N.of_nat 8) with (2 ^ 64). change 2047 with (N.ones 11).
  rewrite shiftr_land_ones, extract_mod, pow256, div_pow2_pow2 by lia.
  change (2 ^ 11) with 2048. do 3 f_equal. lia.
Qed.

Lemma mk_buf_value n cs ent : tbl n (length ent) cs -> bytes_ok ent ->
  length (m_buf (mk_mnemonic sha256 ent)) = 64%nat
  /\ bytes_ok (m_buf (mk_mnemonic sha256 ent))
  /\ be_val (m_buf (mk_mnemonic sha256 ent)) / 2 ^ (512 - 11 * N.of_nat n) = bip39_value sha256 ent.
Proof.
  intros Ht Hok. rewrite (bip39_value_eq n cs ent Ht).
  destruct (sha256_cons ent) as (h & r & Es & Hh & Lr & Or).
  unfold mk_mnemonic. cbn [m_buf]. rewrite Es. cbn [nth].
  set (rest := r ++ repeat 0 (64 - length ent - 32)).
  change (ent ++ (h :: r) ++ repeat 0 (64 - length ent - 32)) with (ent ++ [h] ++ rest).
  destruct Ht as (Hcs & Hwords & Hbytes).
  assert (Lrest : length rest = (63 - length ent)%nat)
    by (unfold rest; rewrite app_length, repeat_length; lia).
  assert (Orest : bytes_ok rest).
  { apply bytes_ok_app. split; [exact Or|]. apply Forall_forall. intros x Hx.
    apply repeat_spec in Hx. subst x. reflexivity. }
  split; [rewrite !app_length; cbn [length]; lia|].
  split; [rewrite !bytes_ok_app; repeat split; try assumption; constructor; [exact Hh|constructor]|].
  replace (512 - 11 * N.of_nat n) with (8 * N.of_nat (length rest) + (8 - cs)) by lia.
  rewrite <- div_pow2_pow2, <- pow256, app_assoc, be_val_app_div by exact Orest.
  unfold be_val. rewrite of_digits_snoc.
  replace 256 with (2 ^ cs * 2 ^ (8 - cs))
    by (rewrite <- N.pow_add_r; replace (cs + (8 - cs)) with 8 by lia; reflexivity).
  rewrite N.mul_assoc. apply N.div_add_l, pow2_nz.
Qed.

Lemma word_index_ok n cs ent i : tbl n (length ent) cs -> bytes_ok ent -> (i < n)%nat ->
  word_index_at (mk_mnemonic sha256 ent) i
  = Ok ((bip39_value sha256 ent / 2048 ^ N.of_nat (n - 1 - i)) mod 2048).
Proof.
  intros Ht Hok Hi. destruct (mk_buf_value n cs ent Ht Hok) as (Lb & Ob & <-).
  unfold tbl in Ht. rewrite word_index_at_bits by (assumption || lia).
  rewrite pow2048, div_pow2_pow2. do 4 f_equal. lia.
Qed.

Lemma to_phrase_ok ent : bytes_ok ent -> valid_ent_len (length ent) ->
  to_phrase (mk_mnemonic sha256 ent) = Ok (bip39_phrase sha256 ent)
  /\ mnemonic_length (mk_mnemonic sha256 ent) = length (bip39_indices sha256 ent).
Proof.
  intros Hok Hv. destruct (valid_ent_tbl _ Hv) as (n & cs & Ht).
  pose proof (mnemonic_length_mk sha256 n cs ent Ht) as Hml.
  rewrite (bip39_indices_length n cs ent Ht). split; [|exact Hml].
  unfold to_phrase. rewrite Hml.
  rewrite (omapM_map _ (fun i => word ((bip39_value sha256 ent / 2048 ^ N.of_nat (n - 1 - i)) mod 2048))).
  - cbn [bind]. unfold bip39_phrase, bip39_indices.
    rewrite (tbl_ms_words _ _ _ Ht), to_digits_fixed_seq, map_map by discriminate. reflexivity.
  - apply Forall_forall. intros i Hi. apply in_seq in Hi. unfold word_at.
    rewrite (word_index_ok n cs ent i Ht Hok) by lia. reflexivity.
Qed.

Lemma canonical t m : from_phrase sha256 t = Ok m -> to_phrase m = Ok (join [32] (split_ws t)).
Proof.
  intros H. destruct (parse_value t m H) as (ent & Hok & Hv & Hs & ->).
  destruct (to_phrase_ok ent Hok Hv) as [E _]. rewrite E, Hs. reflexivity.
Qed.

End WithSha256.

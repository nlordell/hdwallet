(** [Model/Entropy.v] (C12): what [random] and [new_cmd] return and log for each shape of the
    next response; a phrase determines its entropy.  [Model/Seed.v] (C02): the seed is one
    [pbkdf2] call on the printed phrase and the salt.  Both on the C01 lemmas of
    [Proofs/Bip39Proofs.v].  A lemma that needs a section hypothesis names it in [Proof using]. *)
From Coq Require Import String.
From Coq Require Import List NArith Lia.
From HDW Require Import Lib.Outcome Lib.Bytes Model.Bip39 Spec.Bip39Spec Model.Entropy Model.Seed.
From HDW Require Import Proofs.Bip39Proofs.
Import ListNotations.

Section WithSha256.
Variable sha256 : bytes -> bytes.
Hypothesis sha256_length : forall x, length (sha256 x) = 32%nat.
Hypothesis sha256_ok : forall x, bytes_ok (sha256 x).

Lemma entropy_of_mk ent : firstn (m_len (mk_mnemonic sha256 ent)) (m_buf (mk_mnemonic sha256 ent)) = ent.
Proof. apply firstn_app_len. reflexivity. Qed.

Lemma mnemonic_length_of_random L n e :
  byte_len L = Ok n -> length e = n -> mnemonic_length (mk_mnemonic sha256 e) = L.
Proof.
  intros HL <-. destruct (byte_len_tbl L _ HL) as [cs Ht]. exact (mnemonic_length_mk sha256 L cs e Ht).
Qed.

Lemma random_exact L n e rest reqs :
  byte_len L = Ok n -> length e = n ->
  random sha256 L {| pending := Some e :: rest; requests := reqs |}
  = (Ok (mk_mnemonic sha256 e), {| pending := rest; requests := reqs ++ [n] |}).
Proof.
  intros HL He. unfold random. rewrite HL. unfold get_entropy. cbn [pending requests].
  rewrite (firstn_app_len e _ n He). reflexivity.
Qed.

Lemma random_unsupported L st : ~ valid_word_count L -> random sha256 L st = (Err, st).
Proof. intros H. unfold random. rewrite (byte_len_unsupported L H). reflexivity. Qed.

Lemma random_failure L n rest reqs :
  byte_len L = Ok n ->
  random sha256 L {| pending := None :: rest; requests := reqs |}
  = (Err, {| pending := rest; requests := reqs ++ [n] |}).
Proof. intros HL. unfold random. rewrite HL. reflexivity. Qed.

Lemma new_cmd_exact L n e rest reqs :
  byte_len L = Ok n -> length e = n -> bytes_ok e ->
  new_cmd sha256 L {| pending := Some e :: rest; requests := reqs |}
  = (Ok (bip39_phrase sha256 e), {| pending := rest; requests := reqs ++ [n] |}).
Proof using sha256_length sha256_ok.
  intros HL He Hok. unfold new_cmd. rewrite (random_exact L n e rest reqs HL He). cbn [bind].
  assert (Hv : valid_ent_len (length e)) by (rewrite He; exact (byte_len_valid_ent L n HL)).
  rewrite (proj1 (to_phrase_ok sha256 sha256_length sha256_ok e Hok Hv)). reflexivity.
Qed.

Lemma new_cmd_failure L n rest reqs :
  byte_len L = Ok n ->
  new_cmd sha256 L {| pending := None :: rest; requests := reqs |} = (Err, {| pending := rest; requests := reqs ++ [n] |}).
Proof. intros HL. unfold new_cmd. rewrite (random_failure L n rest reqs HL). reflexivity. Qed.

Lemma new_cmd_unsupported L st : ~ valid_word_count L -> new_cmd sha256 L st = (Err, st).
Proof. intros H. unfold new_cmd. rewrite (random_unsupported L st H). reflexivity. Qed.

(** parse the phrase back ([roundtrip]) and read the entropy off the buffer ([entropy_of_mk]) *)
Lemma phrase_injective e1 e2 :
  bytes_ok e1 -> bytes_ok e2 -> valid_ent_len (length e1) -> valid_ent_len (length e2) ->
  bip39_phrase sha256 e1 = bip39_phrase sha256 e2 -> e1 = e2.
Proof using sha256_length sha256_ok.
  intros H1 H2 V1 V2 Hp.
  pose proof (roundtrip sha256 sha256_length sha256_ok e1 H1 V1) as R1.
  rewrite Hp, (roundtrip sha256 sha256_length sha256_ok e2 H2 V2) in R1.
  assert (Hm : mk_mnemonic sha256 e1 = mk_mnemonic sha256 e2) by congruence.
  rewrite <- (entropy_of_mk e1), <- (entropy_of_mk e2), Hm. reflexivity.
Qed.

Section Seed.
Variable pbkdf2 : bytes -> bytes -> N -> nat -> bytes.
Variable nfkd : text -> text.
Hypothesis nfkd_ascii_prefix : forall a p, all_ascii a -> nfkd (a ++ p) = a ++ nfkd p.

Lemma seed_of_printed m p pw : to_phrase m = Ok p ->
  seed pbkdf2 nfkd m pw = Ok (pbkdf2 (utf8 p) (utf8 (nfkd (s2l "mnemonic" ++ pw))) 2048%N 64%nat).
Proof. intros H. unfold seed. rewrite H. reflexivity. Qed.

Lemma seed_of_phrase t m pw : from_phrase sha256 t = Ok m ->
  seed pbkdf2 nfkd m pw
  = Ok (pbkdf2 (utf8 (join [32%N] (split_ws t))) (utf8 (nfkd (s2l "mnemonic" ++ pw))) 2048%N 64%nat).
Proof using sha256_length sha256_ok.
  intros H. apply seed_of_printed, (canonical sha256 sha256_length sha256_ok t m H).
Qed.

(** The length of [pbkdf2]'s output is needed here only, so it is a premise. *)
Lemma seed_length m pw s : (forall a b c d, length (pbkdf2 a b c d) = d) ->
  seed pbkdf2 nfkd m pw = Ok s -> length s = 64%nat.
Proof. intros Hl H. apply bind_ok in H as (p & _ & [= <-]). apply Hl. Qed.

Lemma all_ascii_mnemonic : all_ascii (s2l "mnemonic").
Proof. unfold all_ascii. repeat constructor; reflexivity. Qed.

Lemma seed_salt m pw :
  seed pbkdf2 nfkd m pw = bind (to_phrase m) (fun phrase =>
    Ok (pbkdf2 (utf8 phrase) (utf8 (s2l "mnemonic" ++ nfkd pw)) 2048%N 64%nat)).
Proof using nfkd_ascii_prefix.
  unfold seed, salt_text. rewrite (nfkd_ascii_prefix _ pw all_ascii_mnemonic). reflexivity.
Qed.

End Seed.
End WithSha256.

(** Facts about the JSON text reader of [Model/JsonText.v]: every sub-parser consumes input and ends in a
    value or an ordinary error, so the fuel [parse_doc] gives is never used up; plain decimal literals
    are read exactly; objects become sorted maps; [to_value] and the pipeline from bytes are total. *)
From Coq Require Import List NArith ZArith Bool Lia Sorted.
From HDW Require Import Lib.Outcome Lib.Bytes Lib.Decimal Model.Json Model.Eip712Types Model.JsonText.
From HDW Require Import Spec.Eip712TypeSpec Proofs.TextOrder.
Import ListNotations.
Open Scope N_scope.

(** decides the test at the head of the left-hand side from the hypotheses; [repeat decide_if] walks
    down a chain of tests to the branch taken and stops there *)
Ltac decide_if :=
  lazymatch goal with
  | |- (if ?c then _ else _) = _ => first [replace c with false by lia | replace c with true by lia]
  end.

(** induction over syntax trees: [jt] is nested through [list], and the generated principle says
    nothing about the elements of an array or the members of an object *)
Section JtInd.
  Variable P : jt -> Prop.
  Hypothesis Hnull : P TNull.
  Hypothesis Hbool : forall b, P (TBool b).
  Hypothesis Hnum : forall n, P (TNum n).
  Hypothesis Hstr : forall s, P (TStr s).
  Hypothesis Harr : forall l, Forall P l -> P (TArr l).
  Hypothesis Hobj : forall kvs, Forall (fun kv => P (snd kv)) kvs -> P (TObj kvs).

  Fixpoint jt_ind' (t : jt) : P t :=
    match t with
    | TNull => Hnull
    | TBool b => Hbool b
    | TNum n => Hnum n
    | TStr s => Hstr s
    | TArr l => Harr l ((fix go (l : list jt) : Forall P l :=
                           match l with
                           | [] => Forall_nil P
                           | x :: r => Forall_cons x (jt_ind' x) (go r)
                           end) l)
    | TObj kvs => Hobj kvs ((fix go (l : list (text * jt)) : Forall (fun kv => P (snd kv)) l :=
                               match l with
                               | [] => Forall_nil _
                               | kv :: r => Forall_cons kv (jt_ind' (snd kv)) (go r)
                               end) kvs)
    end.
End JtInd.

(** * Sub-parsers consume input *)

Definition good {A} (s : bytes) (o : outcome (A * bytes)) : Prop :=
  match o with
  | Ok (_, r) => (length r < length s)%nat
  | Err => True
  | _ => False
  end.

Lemma good_cases {A} s (o : outcome (A * bytes)) :
  good s o -> o = Err \/ exists a r, o = Ok (a, r) /\ (length r < length s)%nat.
Proof. destruct o as [[a r]| | |]; cbn [good]; intros H; [right; eauto|left; reflexivity|destruct H|destruct H]. Qed.

Lemma good_of_le {A} (s s' : bytes) (o : outcome (A * bytes)) :
  good s' o -> (length s' <= length s)%nat -> good s o.
Proof. unfold good. destruct o as [[? r]| | |]; intros; try assumption. lia. Qed.

Lemma skip_ws_le s : (length (skip_ws s) <= length s)%nat.
Proof.
  induction s as [|c r IH]; cbn [skip_ws length]; [lia|].
  destruct (jws c); cbn [length]; lia.
Qed.

Lemma skip_ws_cons_lt s c r : skip_ws s = c :: r -> (length r < length s)%nat.
Proof. intros H. pose proof (skip_ws_le s) as L. rewrite H in L. exact L. Qed.

Lemma digits_run_len s : forall acc cnt v c r, digits_run s acc cnt = (v, c, r) ->
  (length r + N.to_nat c = length s + N.to_nat cnt)%nat /\ cnt <= c.
Proof.
  induction s as [|x s IH]; intros acc cnt v c r H; cbn [digits_run] in H.
  - inversion H; subst; cbn; lia.
  - destruct (is_digit x).
    + apply IH in H. cbn [length]. lia.
    + inversion H; subst. lia.
Qed.

Lemma digits_run_cnt s : forall acc cnt v c r, digits_run s acc cnt = (v, c, r) ->
  (length r + N.to_nat c = length s + N.to_nat cnt)%nat.
Proof. intros acc cnt v c r H. apply (digits_run_len _ _ _ _ _ _ H). Qed.

Lemma digits_run_le s acc cnt v c r : digits_run s acc cnt = (v, c, r) -> (length r <= length s)%nat.
Proof. intros H. apply digits_run_len in H. lia. Qed.

Lemma int_part_good s : good s (int_part s).
Proof.
  unfold int_part, good. destruct s as [|c r]; [exact I|].
  destruct (c =? 48).
  - destruct r as [|d r']; [cbn; lia|]. destruct (is_digit d); [exact I|cbn; lia].
  - destruct (is_digit c) eqn:Hd; [|exact I].
    destruct (digits_run (c :: r) 0 0) as [[v cnt] r'] eqn:E.
    cbn [digits_run] in E. rewrite Hd in E. apply digits_run_le in E. cbn [length]. lia.
Qed.

(** The parts of a number that may be empty are good for every input [s0] longer than theirs. *)
Lemma frac_part_good m s s0 : (length s < length s0)%nat -> good s0 (frac_part m s).
Proof.
  intros L. unfold frac_part. destruct s as [|c r]; [exact L|].
  destruct (c =? 46); [|exact L].
  destruct (digits_run r m 0) as [[v cnt] r'] eqn:E. apply digits_run_le in E.
  destruct (cnt =? 0); [exact I|cbn [good length] in *; lia].
Qed.

Lemma exp_digits_good sg s s0 : (length s < length s0)%nat -> good s0 (exp_digits sg s).
Proof.
  intros L. unfold exp_digits. destruct (digits_run s 0 0) as [[v cnt] r2] eqn:E. apply digits_run_le in E.
  destruct (cnt =? 0); [exact I|cbn [good]; lia].
Qed.

Lemma exp_part_good s s0 : (length s < length s0)%nat -> good s0 (exp_part s).
Proof.
  intros L. unfold exp_part. destruct s as [|c r]; [exact L|].
  destruct ((c =? 101) || (c =? 69)); [|exact L].
  destruct r as [|x r']; [exact I|]. cbn [length] in L.
  destruct (x =? 43); [|destruct (x =? 45)]; apply exp_digits_good; cbn [length]; lia.
Qed.

Lemma pnum_good s : good s (pnum s).
Proof.
  unfold pnum.
  set (p := match s with c :: r => if c =? 45 then (true, r) else (false, s) | [] => (false, s) end).
  assert (Hp : (length (snd p) <= length s)%nat).
  { subst p. destruct s as [|c r]; [cbn; lia|]. destruct (c =? 45); cbn; lia. }
  destruct p as [neg s1]. cbn [snd] in Hp.
  destruct (good_cases _ _ (int_part_good s1)) as [->|(iv & s2 & -> & L2)]; [exact I|].
  destruct (good_cases _ _ (frac_part_good iv s2 s ltac:(lia))) as [->|([[m fc] hasf] & s3 & -> & L3)]; [exact I|].
  destruct (good_cases _ _ (exp_part_good s3 s L3)) as [->|([e hase] & s4 & -> & L4)]; [exact I|].
  destruct (hasf || hase); exact L4.
Qed.

(** [pstr] is a structural [Fixpoint] whose every recursive call sits at the end of a long chain of
    tests.  [pstr_body] is a copy of one step of it with the three ways it goes on as parameters: [q]
    after the closing quote, [k] after a character ([escape_body] behind a backslash, else
    [utf8_body] on the lead byte), [e] on malformed input.  [pstr] is [pstr_body] with itself as [k]
    ([pstr_eq], by computation), so a fact about the step, proved once without induction, serves
    every induction over [pstr] here and in [Proofs/JsonRoundTrip.v].  A change of
    [Model/JsonText.pstr] has to be made in these three bodies too; [pstr_eq] fails until it is. *)
Definition escape_body {R} (r : bytes) (k : N -> bytes -> R) (e : R) : R :=
  match r with
  | [] => e
  | x :: r1 =>
      if x =? 34 then k 34 r1
      else if x =? 92 then k 92 r1
      else if x =? 47 then k 47 r1
      else if x =? 98 then k 8 r1
      else if x =? 102 then k 12 r1
      else if x =? 110 then k 10 r1
      else if x =? 114 then k 13 r1
      else if x =? 116 then k 9 r1
      else if x =? 117 then
        match r1 with
        | h1 :: h2 :: h3 :: h4 :: r2 =>
            match hex4 h1 h2 h3 h4 with
            | None => e
            | Some u =>
                if (0xDC00 <=? u) && (u <=? 0xDFFF) then e
                else if (0xD800 <=? u) && (u <=? 0xDBFF) then
                  match r2 with
                  | b1 :: b2 :: g1 :: g2 :: g3 :: g4 :: r3 =>
                      if (b1 =? 92) && (b2 =? 117) then
                        match hex4 g1 g2 g3 g4 with
                        | None => e
                        | Some l =>
                            if (0xDC00 <=? l) && (l <=? 0xDFFF)
                            then k (0x10000 + (u - 0xD800) * 0x400 + (l - 0xDC00)) r3
                            else e
                        end
                      else e
                  | _ => e
                  end
                else k u r2
            end
        | _ => e
        end
      else e
  end.

Definition utf8_body {R} (b : N) (r : bytes) (k : N -> bytes -> R) (e : R) : R :=
  if b <? 32 then e
  else if b <? 0x80 then k b r
  else if b <? 0xC2 then e
  else if b <? 0xE0 then
    match r with
    | c1 :: r1 => if cont c1 then k ((b - 0xC0) * 64 + (c1 - 0x80)) r1 else e
    | _ => e
    end
  else if b <? 0xF0 then
    match r with
    | c1 :: c2 :: r2 =>
        if cont c1 && cont c2
           && (if b =? 0xE0 then 0xA0 <=? c1 else true)
           && (if b =? 0xED then c1 <=? 0x9F else true)
        then k (((b - 0xE0) * 64 + (c1 - 0x80)) * 64 + (c2 - 0x80)) r2 else e
    | _ => e
    end
  else if b <? 0xF5 then
    match r with
    | c1 :: c2 :: c3 :: r3 =>
        if cont c1 && cont c2 && cont c3
           && (if b =? 0xF0 then 0x90 <=? c1 else true)
           && (if b =? 0xF4 then c1 <=? 0x8F else true)
        then k ((((b - 0xF0) * 64 + (c1 - 0x80)) * 64 + (c2 - 0x80)) * 64 + (c3 - 0x80)) r3 else e
    | _ => e
    end
  else e.

Definition pstr_body {R} (s : bytes) (q : bytes -> R) (k : N -> bytes -> R) (e : R) : R :=
  match s with
  | [] => e
  | b :: r => if b =? 34 then q r else if b =? 92 then escape_body r k e else utf8_body b r k e
  end.

Lemma pstr_eq s acc :
  pstr s acc = pstr_body s (fun r => Ok (rev acc, r)) (fun c r => pstr r (c :: acc)) Err.
Proof. destruct s; reflexivity. Qed.

(** What holds of [e], and of [k] on every rest that short, holds of the step. *)
Lemma escape_body_cases {R} (P : R -> Prop) r k e :
  P e -> (forall c r', (length r' < length r)%nat -> P (k c r')) -> P (escape_body r k e).
Proof.
  intros He K. unfold escape_body. destruct r as [|x r1]; [exact He|].
  (* the eight one-letter escapes, then \u *)
  do 8 (destruct (x =? _); [apply K; cbn [length]; lia|]). destruct (x =? 117); [|exact He].
  destruct r1 as [|h1 [|h2 [|h3 [|h4 r2]]]]; try exact He.
  destruct (hex4 h1 h2 h3 h4) as [u|]; [|exact He].
  destruct (_ && (u <=? 0xDFFF)); [exact He|]. destruct (_ && _); [|apply K; cbn [length]; lia].
  destruct r2 as [|b1 [|b2 [|g1 [|g2 [|g3 [|g4 r3]]]]]]; try exact He.
  destruct (_ && _); [|exact He]. destruct (hex4 g1 g2 g3 g4) as [l|]; [|exact He].
  destruct (_ && _); [apply K; cbn [length]; lia|exact He].
Qed.

Lemma utf8_body_cases {R} (P : R -> Prop) b r k e :
  P e -> (forall c r', (length r' <= length r)%nat -> P (k c r')) -> P (utf8_body b r k e).
Proof.
  intros He K. unfold utf8_body. destruct (b <? 32); [exact He|]. destruct (b <? 0x80); [apply K; lia|].
  destruct (b <? 0xC2); [exact He|]. destruct (b <? 0xE0); [|destruct (b <? 0xF0); [|destruct (b <? 0xF5)]].
  - destruct r as [|c1 r1]; [exact He|]. destruct (cont c1); [apply K; cbn [length]; lia|exact He].
  - destruct r as [|c1 [|c2 r2]]; try exact He. destruct (_ && _); [apply K; cbn [length]; lia|exact He].
  - destruct r as [|c1 [|c2 [|c3 r3]]]; try exact He. destruct (_ && _); [apply K; cbn [length]; lia|exact He].
  - exact He.
Qed.

Lemma pstr_body_cases {R} (P : R -> Prop) s q k e :
  P e -> (forall r, (length r < length s)%nat -> P (q r)) ->
  (forall c r, (length r < length s)%nat -> P (k c r)) -> P (pstr_body s q k e).
Proof.
  intros He Hq Hk. destruct s as [|b r]; [exact He|]. cbn [pstr_body length] in *.
  destruct (b =? 34); [apply Hq; lia|].
  destruct (b =? 92); [apply escape_body_cases|apply utf8_body_cases]; try exact He; intros c r' L; apply Hk; lia.
Qed.

Lemma pstr_good s : forall acc, good s (pstr s acc).
Proof.
  induction s as [s IH] using (induction_ltof1 _ (@length N)). unfold ltof in IH. intros acc.
  rewrite pstr_eq. apply pstr_body_cases; [exact I|intros r L; exact L|intros c r L].
  apply (good_of_le _ r); [apply IH; exact L|lia].
Qed.

Lemma lit_good w v r s0 : (length r < length s0)%nat -> good s0 (lit w v r).
Proof.
  intros L. unfold lit, good. destruct (strip_prefix w r) as [r'|] eqn:E; [|exact I].
  apply strip_prefix_some in E. subst r. rewrite app_length in L. lia.
Qed.

(** Why the fuel [2 * length s + 2] is enough: [pv] passes one unit less to [parr] / [pobj] together
    with an input that has lost the bracket; a round of [parr] / [pobj] passes one unit less to [pv]
    with its whole input (so a round needs one unit more than [pv] on the same input: [+ 3]) and to
    the next round, whose input has lost at least the value and the comma.  [pv] never passes an
    empty input and the statements assume none ([s <> []]); where the rest after a comma is empty
    the steps therefore run the next round themselves (it fails at once). *)
Definition P_pv (f : nat) : Prop :=
  forall d s, (2 * length s + 2 <= f)%nat -> good s (pv f d s).
Definition P_arr (f : nat) : Prop :=
  forall d s acc, (2 * length s + 3 <= f)%nat -> s <> [] -> good s (parr f d s acc).
Definition P_obj (f : nat) : Prop :=
  forall d s acc, (2 * length s + 3 <= f)%nat -> s <> [] -> good s (pobj f d s acc).

Lemma pv_step f : P_arr f -> P_obj f -> P_pv (S f).
Proof.
  intros HA HO d s Hf. cbn [pv].
  destruct (skip_ws s) as [|c r] eqn:Es; [exact I|].
  apply skip_ws_cons_lt in Es.
  do 3 (destruct (c =? _); [apply lit_good; exact Es|]).
  destruct (c =? 34).
  { destruct (good_cases _ _ (pstr_good r [])) as [->|(t & r' & -> & L)]; [exact I|]. cbn [good]. lia. }
  destruct (c =? 91).
  { destruct (enter d) as [d'|]; [|exact I].
    destruct (skip_ws r) as [|x r'] eqn:Er; [exact I|]. apply skip_ws_cons_lt in Er.
    destruct (x =? 93); [cbn [good]; lia|].
    apply (good_of_le _ (x :: r')); [apply HA; [cbn [length]; lia|discriminate]|cbn [length]; lia]. }
  destruct (c =? 123).
  { destruct (enter d) as [d'|]; [|exact I].
    destruct (skip_ws r) as [|x r'] eqn:Er; [exact I|]. apply skip_ws_cons_lt in Er.
    destruct (x =? 125); [cbn [good]; lia|].
    apply (good_of_le _ (x :: r')); [apply HO; [cbn [length]; lia|discriminate]|cbn [length]; lia]. }
  destruct ((c =? 45) || is_digit c); [|exact I].
  destruct (good_cases _ _ (pnum_good (c :: r))) as [->|(n & r' & -> & L)]; [exact I|].
  cbn [good length] in *. lia.
Qed.

Lemma arr_step f : P_pv f -> P_arr f -> P_arr (S f).
Proof.
  intros HV HA d s acc Hf Hne. cbn [parr].
  destruct (good_cases _ _ (HV d s ltac:(lia))) as [->|(v & r & -> & L)]; [exact I|].
  destruct (skip_ws r) as [|x r'] eqn:Er; [exact I|]. apply skip_ws_cons_lt in Er.
  destruct (x =? 44); [|destruct (x =? 93); [cbn [good]; lia|exact I]].
  destruct r' as [|y r''].
  - (* nothing after the comma: the next value fails *)
    destruct f as [|[|f'']]; [lia|lia|exact I].
  - apply (good_of_le _ (y :: r'')); [apply HA; [cbn [length] in *; lia|discriminate]|cbn [length] in *; lia].
Qed.

Lemma obj_step f : P_pv f -> P_obj f -> P_obj (S f).
Proof.
  intros HV HO d s acc Hf Hne. cbn [pobj].
  destruct (skip_ws s) as [|q r0] eqn:Es; [exact I|]. apply skip_ws_cons_lt in Es.
  destruct (q =? 34); [|exact I].
  destruct (good_cases _ _ (pstr_good r0 [])) as [->|(k & r1 & -> & L1)]; [exact I|].
  destruct (skip_ws r1) as [|col r2] eqn:E1; [exact I|]. apply skip_ws_cons_lt in E1.
  destruct (col =? 58); [|exact I].
  destruct (good_cases _ _ (HV d r2 ltac:(lia))) as [->|(v & r3 & -> & L3)]; [exact I|].
  destruct (skip_ws r3) as [|x r4] eqn:E3; [exact I|]. apply skip_ws_cons_lt in E3.
  destruct (x =? 44); [|destruct (x =? 125); [cbn [good]; lia|exact I]].
  destruct r4 as [|y r5].
  - destruct f as [|f']; [lia|exact I].
  - apply (good_of_le _ (y :: r5)); [apply HO; [cbn [length] in *; lia|discriminate]|cbn [length] in *; lia].
Qed.

Lemma all_steps f : P_pv f /\ P_arr f /\ P_obj f.
Proof.
  induction f as [|f [IV [IA IO]]].
  - repeat split; intros d s; intros; lia.
  - repeat split; [apply pv_step|apply arr_step|apply obj_step]; assumption.
Qed.

Lemma good_graceful {A} s (o : outcome (A * bytes)) : good s o -> graceful o.
Proof. destruct o as [[a r]| | |]; cbn [good]; intros H; try destruct H; split; discriminate. Qed.

(** [serde_json::from_slice::<Value>] as modelled always returns: a value or an ordinary error *)
Theorem parse_doc_total s : graceful (parse_doc s).
Proof.
  unfold parse_doc.
  destruct (good_cases _ _ (proj1 (all_steps (2 * length s + 2)) 128 s (le_n _))) as [->|(v & r & -> & _)].
  - apply graceful_err.
  - destruct (all_ws r); [apply graceful_ok|apply graceful_err].
Qed.

(** * Plain integer literals are read exactly *)

(** what may follow a number token: not a digit, not '.', not 'e' / 'E' *)
Definition ends_num (rest : bytes) : Prop :=
  match rest with
  | c :: _ => is_digit c = false /\ c <> 46 /\ c <> 101 /\ c <> 69
  | [] => True
  end.

(** [digits_run] accumulates like [parse_digits] of [Lib/Decimal.v] and stops where the number ends *)
Lemma digits_run_app ds : forall acc cnt rest v, parse_digits ds acc = Some v -> ends_num rest ->
  digits_run (ds ++ rest) acc cnt = (v, cnt + N.of_nat (length ds), rest).
Proof.
  induction ds as [|d ds IH]; intros acc cnt rest v H Hr; cbn [parse_digits app digits_run] in *.
  - injection H as <-. rewrite N.add_0_r. destruct rest as [|c r]; cbn [digits_run]; [reflexivity|]. rewrite (proj1 Hr). reflexivity.
  - unfold digit_val in H. unfold is_digit. destruct ((48 <=? d) && (d <=? 57)); [|discriminate].
    rewrite (IH _ _ _ _ H Hr). cbn [length]. f_equal. f_equal. lia.
Qed.

Lemma decimal_head n : exists c r, decimal n = c :: r /\ 48 <= c <= 57.
Proof.
  pose proof (decimal_digits n) as Hall. pose proof (decimal_nonempty n) as Hne.
  destruct (decimal n) as [|c r]; [congruence|]. exists c, r. split; [reflexivity|]. inversion Hall; assumption.
Qed.

Lemma int_part_decimal n rest : ends_num rest -> int_part (decimal n ++ rest) = Ok (n, rest).
Proof.
  intros Hr. destruct (N.eq_dec n 0) as [->|Hn0].
  - cbn [decimal N.eqb app int_part]. destruct rest as [|d r]; [reflexivity|]. rewrite (proj1 Hr). reflexivity.
  - destruct (decimal_canonical n Hn0) as (c & r & Hdec & Hc).
    pose proof (decimal_digits n) as Hall. rewrite Hdec in Hall.
    rewrite Hdec. cbn [app]. unfold int_part. destruct (N.eqb_spec c 48); [contradiction|].
    rewrite (proj2 (is_digit_spec c)) by (inversion Hall; assumption).
    change (c :: r ++ rest) with ((c :: r) ++ rest). rewrite (digits_run_app _ 0 0 rest n); [reflexivity| |exact Hr].
    rewrite parse_digits_spec, <- Hdec, decimal_value by exact Hall. reflexivity.
Qed.

Lemma frac_none m rest : ends_num rest -> frac_part m rest = Ok (m, 0, false, rest).
Proof.
  intros Hr. unfold frac_part. destruct rest as [|c r]; [reflexivity|].
  destruct Hr as (_ & H46 & _). destruct (N.eqb_spec c 46); [contradiction|reflexivity].
Qed.

Lemma exp_none rest : ends_num rest -> exp_part rest = Ok (0%Z, false, rest).
Proof.
  intros Hr. unfold exp_part. destruct rest as [|c r]; [reflexivity|].
  destruct Hr as (_ & _ & H101 & H69).
  destruct (N.eqb_spec c 101); [contradiction|]. destruct (N.eqb_spec c 69); [contradiction|]. reflexivity.
Qed.

Lemma pnum_signed_decimal (neg : bool) n rest : ends_num rest ->
  pnum ((if neg then [45] else []) ++ decimal n ++ rest) = Ok (classify neg n, rest).
Proof.
  intros Hr. unfold pnum. destruct neg; cbn [app].
  - replace (45 =? 45) with true by reflexivity.
    rewrite (int_part_decimal n rest Hr), (frac_none n rest Hr), (exp_none rest Hr). reflexivity.
  - destruct (decimal_head n) as (c & r & Hdec & Hc). rewrite Hdec. cbn [app].
    destruct (N.eqb_spec c 45); [lia|]. change (c :: r ++ rest) with ((c :: r) ++ rest). rewrite <- Hdec.
    rewrite (int_part_decimal n rest Hr), (frac_none n rest Hr), (exp_none rest Hr). reflexivity.
Qed.

Lemma classify_u64 n : n < 2 ^ 64 -> classify false n = NumU n.
Proof. intros H. unfold classify. decide_if. reflexivity. Qed.

Lemma classify_i64 m : 1 <= m <= 2 ^ 63 -> classify true m = NumI (- Z.of_N m).
Proof. intros H. unfold classify. decide_if. reflexivity. Qed.

(** the decimal spelling of any n < 2^64 is read as exactly n (an integer, no floating point involved) *)
Theorem pnum_decimal n rest : n < 2 ^ 64 -> ends_num rest ->
  pnum (decimal n ++ rest) = Ok (NumU n, rest).
Proof. intros Hn Hr. rewrite <- (classify_u64 n Hn). exact (pnum_signed_decimal false n rest Hr). Qed.

Lemma pv_number f d c r n r' :
  (c = 45 \/ 48 <= c <= 57) -> pnum (c :: r) = Ok (n, r') -> pv (S f) d (c :: r) = Ok (TNum n, r').
Proof.
  intros Hc Hp. cbn [pv skip_ws]. replace (jws c) with false by (unfold jws; lia).
  unfold is_digit. repeat decide_if. rewrite Hp. reflexivity.
Qed.

Lemma pv_signed_decimal f d (neg : bool) n rest : ends_num rest ->
  pv (S f) d ((if neg then [45] else []) ++ decimal n ++ rest) = Ok (TNum (classify neg n), rest).
Proof.
  intros Hr. generalize (pnum_signed_decimal neg n rest Hr). destruct neg; cbn [app].
  - apply pv_number. left. reflexivity.
  - destruct (decimal_head n) as (c & r & -> & Hc). apply pv_number. right. exact Hc.
Qed.

Theorem parse_doc_decimal n : n < 2 ^ 64 -> parse_doc (decimal n) = Ok (TNum (NumU n)).
Proof.
  intros Hn. pose proof (pv_signed_decimal (2 * length (decimal n) + 1) 128 false n [] I) as E.
  cbn [app] in E. rewrite app_nil_r, (classify_u64 n Hn) in E.
  unfold parse_doc. rewrite Nat.add_succ_r, E. reflexivity.
Qed.

(** * serde_json::Value's view: objects are maps, [to_value] is total *)

Lemma obj_get_insert k k' v m :
  obj_get k (obj_insert k' v m) = if list_eqb k k' then Some v else obj_get k m.
Proof.
  induction m as [|[k2 v2] r IH]; cbn [obj_insert obj_get].
  - reflexivity.
  - destruct (text_ltb k' k2); [cbn [obj_get]; reflexivity|].
    destruct (list_eqb k' k2) eqn:E2.
    + apply list_eqb_spec in E2. subst k2. cbn [obj_get]. destruct (list_eqb k k'); reflexivity.
    + cbn [obj_get]. rewrite IH. destruct (list_eqb k k2) eqn:E; [|reflexivity].
      apply list_eqb_spec in E. subst k2.
      destruct (list_eqb k k') eqn:E'; [|reflexivity].
      apply list_eqb_spec in E'. subst k'. rewrite list_eqb_refl in E2. discriminate.
Qed.

(** The two inner loops of [to_value] are anonymous [fix]es.  The one on the members of an object
    is [objs_fold], the one on the elements of an array is [omapM] of [Lib/Outcome.v]. *)
Fixpoint objs_fold (f : jt -> outcome json) (l : list (text * jt)) (m : list (text * json)) : outcome (list (text * json)) :=
  match l with
  | [] => Ok m
  | (k, x) :: r =>
      match f x with
      | Ok y => objs_fold f r (obj_insert k y m)
      | Err => Err
      | Panic => Panic
      | OutOfFuel => OutOfFuel
      end
  end.

Lemma to_value_obj rnd kvs : to_value rnd (TObj kvs) = omap JObj (objs_fold (to_value rnd) kvs []).
Proof.
  cbn [to_value]. f_equal. generalize (@nil (text * json)) as m.
  induction kvs as [|[k x] r IH]; intros m; cbn [objs_fold]; [reflexivity|].
  destruct (to_value rnd x); try reflexivity. apply IH.
Qed.

Lemma to_value_arr rnd l : to_value rnd (TArr l) = omap JArr (omapM (to_value rnd) l).
Proof.
  cbn [to_value]. f_equal.
  induction l as [|x r IH]; cbn [omapM]; [reflexivity|].
  destruct (to_value rnd x); try reflexivity. rewrite IH. destruct (omapM (to_value rnd) r); reflexivity.
Qed.

Lemma objs_fold_sorted f l : forall m m', StronglySorted text_lt (map fst m) ->
  objs_fold f l m = Ok m' -> StronglySorted text_lt (map fst m').
Proof.
  induction l as [|[k x] r IH]; intros m m' HS H; cbn [objs_fold] in H.
  - inversion H; subst; exact HS.
  - destruct (f x) as [y| | |]; try discriminate.
    eapply IH; [|exact H]. apply obj_insert_sorted; exact HS.
Qed.

(** the value of key [k] after the loop: the LAST member with that key, else what the map had *)
Fixpoint last_member (f : jt -> outcome json) (k : text) (l : list (text * jt)) (cur : option json) : option json :=
  match l with
  | [] => cur
  | (k', x) :: r => last_member f k r (if list_eqb k k' then (match f x with Ok y => Some y | _ => None end) else cur)
  end.

Lemma objs_fold_get f l : forall m m' k, objs_fold f l m = Ok m' ->
  obj_get k m' = last_member f k l (obj_get k m).
Proof.
  induction l as [|[k' x] r IH]; intros m m' k H; cbn [objs_fold last_member] in *.
  - inversion H; subst; reflexivity.
  - destruct (f x) as [y| | |]; try discriminate.
    rewrite (IH _ _ k H), obj_get_insert. reflexivity.
Qed.

(** an object of the document becomes a map: keys strictly increasing (so distinct), and looking a
    key up gives the value of the last member with that name *)
Theorem to_value_object_is_map rnd kvs m :
  to_value rnd (TObj kvs) = Ok (JObj m) ->
  StronglySorted text_lt (map fst m) /\
  forall k, obj_get k m = last_member (to_value rnd) k kvs None.
Proof.
  rewrite to_value_obj. intros H. apply omap_ok in H as (m0 & E & [= ->]). split.
  - eapply objs_fold_sorted; [|exact E]. constructor.
  - intros k. exact (objs_fold_get _ _ _ _ k E).
Qed.

Lemma objs_fold_ok f l : forall m,
  (exists m', objs_fold f l m = Ok m') <-> Forall (fun kv => exists y, f (snd kv) = Ok y) l.
Proof.
  induction l as [|[k x] r IH]; intros m; cbn [objs_fold].
  - split; [constructor|eauto].
  - rewrite Forall_cons_iff. cbn [snd].
    destruct (f x) as [y| | |]; [|split; [intros [? H]|intros [[? H] _]]; discriminate ..].
    rewrite IH. split; [eauto|intros [_ H]; exact H].
Qed.

Lemma objs_fold_total f l : Forall (fun kv => graceful (f (snd kv))) l -> forall m, graceful (objs_fold f l m).
Proof.
  induction 1 as [|[k x] r [H1 H2] _ IH]; intros m; cbn [objs_fold snd] in *; [apply graceful_ok|].
  destruct (f x); try congruence; [apply IH|apply graceful_err].
Qed.

Lemma to_value_total rnd : forall t, graceful (to_value rnd t).
Proof.
  apply jt_ind'.
  - apply graceful_ok.
  - intros b. apply graceful_ok.
  - intros n. destruct n as [n|z|neg m e]; cbn [to_value]; try apply graceful_ok.
    destruct (rnd neg m e) as [[a b]|]; [apply graceful_ok|apply graceful_err].
  - intros s. apply graceful_ok.
  - intros l HF. rewrite to_value_arr. apply graceful_omap, omapM_graceful, Forall_forall, HF.
  - intros kvs HF. rewrite to_value_obj. apply graceful_omap, objs_fold_total, HF.
Qed.

Theorem json_of_text_total rnd s : graceful (json_of_text rnd s).
Proof.
  unfold json_of_text. apply graceful_bind; [apply parse_doc_total|].
  intros t _. apply to_value_total.
Qed.

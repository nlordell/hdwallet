(** [Model/Eip712Values.v] against [Spec/Eip712ValueSpec.v]: a JSON value is accepted at a type
    exactly when it denotes a typed value of that type, and the word is then the standard's
    [encodeData] word (C08, value half; C09_reject). *)
From Coq Require Import String.
From Coq Require Import List NArith ZArith Bool Lia PeanoNat Permutation.
From HDW Require Import Lib.Outcome Lib.Bytes Model.Json Model.Eip712Kind Model.Domain Model.Eip712Values.
From HDW Require Import Spec.Eip712ValueSpec Proofs.Eip712ValueProofs.
Import ListNotations.
Open Scope N_scope.
Local Open Scope outcome_scope.

(** the nested recursions of the specification are [Forall] / [Forall2] *)

Lemma fix_Forall {A} (Q : A -> Prop) l :
  (fix all (l : list A) : Prop := match l with [] => True | x :: r => Q x /\ all r end) l <-> Forall Q l.
Proof.
  induction l as [|x r IH]; [split; constructor|]. rewrite Forall_cons_iff, IH. reflexivity.
Qed.

Lemma fix_Forall2 {A B} (R : A -> B -> Prop) l : forall l',
  (fix go (l : list A) (l' : list B) {struct l'} : Prop :=
     match l, l' with
     | [], [] => True
     | a :: r, b :: r' => R a b /\ go r r'
     | _, _ => False
     end) l l' <-> Forall2 R l l'.
Proof.
  induction l as [|a r IH]; intros [|b r']; try (split; [contradiction|inversion 1]).
  - split; constructor.
  - rewrite IH. split; [intros [H1 H2]; constructor; assumption|inversion 1; auto].
Qed.

Lemma Forall2_same_length {A B} (R : A -> B -> Prop) l l' : Forall2 R l l' -> length l = length l'.
Proof. induction 1; cbn [length]; congruence. Qed.

Lemma tval_ind' (Q : tval -> Prop) :
  (forall b, Q (VBool b)) -> (forall a, Q (VAddr a)) -> (forall v, Q (VUint v)) ->
  (forall z, Q (VInt z)) -> (forall b, Q (VBytesN b)) -> (forall b, Q (VBytes b)) ->
  (forall s, Q (VString s)) ->
  (forall l, Forall Q l -> Q (VArr l)) ->
  (forall fields, Forall (fun f => Q (snd f)) fields -> Q (VStruct fields)) ->
  forall tv, Q tv.
Proof.
  intros H0 H1 H2 H3 H4 H5 H6 H7 H8. fix IH 1. intros [b|a|v|z|b|b|s|l|fields].
  - apply H0.
  - apply H1.
  - apply H2.
  - apply H3.
  - apply H4.
  - apply H5.
  - apply H6.
  - apply H7. induction l as [|x r IHl]; constructor; [apply IH|exact IHl].
  - apply H8. induction fields as [|f r IHl]; constructor; [apply IH|exact IHl].
Qed.

Lemma json_wf_arr l : json_wf (JArr l) <-> Forall json_wf l.
Proof. exact (fix_Forall json_wf l). Qed.

Lemma json_wf_obj kvs :
  json_wf (JObj kvs) <-> NoDup (map fst kvs) /\ Forall (fun kv => json_wf (snd kv)) kvs.
Proof. exact (and_iff_compat_l _ (fix_Forall (fun kv => json_wf (snd kv)) kvs)). Qed.

Fixpoint field_words (enc : kind -> tval -> bytes) (ms : list member) (fields : list (text * tval))
  : list bytes :=
  match ms, fields with
  | m :: mr, f :: fr => enc (m_kind m) (snd f) :: field_words enc mr fr
  | _, _ => []
  end.

Section Refinement.

Variable P : prims.
Variable den_u : json -> N -> Prop.
Variable den_i : json -> Z -> Prop.
Variable den_bytes : json -> bytes -> Prop.
Variable den_addr : json -> bytes -> Prop.

Notation ev := (encode_value_p P).
Notation sh := (struct_hash_p P).
Notation ht := (has_type (p_type_hash P)).
Notation dn := (denotes den_u den_i den_bytes den_addr).
Notation ed := (enc_data (p_keccak P) (p_type_hash P)).

Lemma ht_array tys inner size l :
  ht tys (KArray inner size) (VArr l) <->
  match size with Some s => N.of_nat (length l) = s | None => True end /\
  Forall (ht tys inner) l.
Proof. exact (and_iff_compat_l _ (fix_Forall (ht tys inner) l)). Qed.

Definition ht_field tys (m : member) (f : text * tval) : Prop :=
  m_name m = fst f /\ ht tys (m_kind m) (snd f).

Lemma ht_struct tys name fields :
  ht tys (KStruct name) (VStruct fields) <->
  exists ms, types_get name tys = Some ms /\ (exists h, p_type_hash P tys name = Ok h) /\
             Forall2 (ht_field tys) ms fields.
Proof.
  cbn [has_type]. destruct (types_get name tys) as [ms|].
  2:{ split; [contradiction|]. intros (ms & H & _). discriminate. }
  split.
  - intros [Hh H]. exists ms. split; [reflexivity|]. split; [exact Hh|].
    revert ms H. induction fields as [|f fr IH]; intros [|m mr] H; try contradiction; constructor.
    + split; apply H.
    + apply IH, H.
  - intros (ms' & [= <-] & Hh & H). split; [exact Hh|].
    induction H as [|m f mr fr [H1 H2] _ IH]; [exact I|]. exact (conj H1 (conj H2 IH)).
Qed.

Lemma ht_field_names tys ms fields :
  Forall2 (ht_field tys) ms fields -> map m_name ms = map fst fields.
Proof. induction 1 as [|m f mr fr [H1 _] _ IH]; [reflexivity|]. cbn [map]. f_equal; assumption. Qed.

Lemma dn_array tys j inner size l :
  dn tys j (KArray inner size) (VArr l) <->
  exists js, j = JArr js /\ Forall2 (fun x t => dn tys x inner t) js l.
Proof.
  cbn [denotes]. split; intros (js & -> & H); exists js; (split; [reflexivity|]);
    apply (fix_Forall2 (fun x t => dn tys x inner t)); exact H.
Qed.

Definition dn_field tys kvs (m : member) (f : text * tval) : Prop :=
  exists v, obj_get (fst f) kvs = Some v /\ dn tys v (m_kind m) (snd f).

Lemma dn_struct tys j name fields :
  dn tys j (KStruct name) (VStruct fields) <->
  exists kvs, j = JObj kvs /\ NoDup (map fst kvs) /\ NoDup (map fst fields) /\
    (forall key, In key (map fst kvs) -> In key (map fst fields)) /\
    exists ms, types_get name tys = Some ms /\ Forall2 (dn_field tys kvs) ms fields.
Proof.
  cbn [denotes]. split.
  - intros (kvs & -> & N1 & N2 & Hk & H). exists kvs. repeat (split; [assumption||reflexivity|]).
    destruct (types_get name tys) as [ms|]; [|contradiction]. exists ms. split; [reflexivity|].
    apply (fix_Forall2 (dn_field tys kvs)). exact H.
  - intros (kvs & -> & N1 & N2 & Hk & ms & E & H). exists kvs.
    repeat (split; [assumption||reflexivity|]). rewrite E.
    apply (fix_Forall2 (dn_field tys kvs)). exact H.
Qed.

Lemma ed_array tys inner size l :
  ed tys (KArray inner size) (VArr l) = p_keccak P (concat (map (ed tys inner) l)).
Proof. reflexivity. Qed.

Lemma ed_struct tys name ms h fields :
  types_get name tys = Some ms -> p_type_hash P tys name = Ok h ->
  ed tys (KStruct name) (VStruct fields) = p_keccak P (h ++ concat (field_words (ed tys) ms fields)).
Proof.
  intros E Hh. cbn [enc_data]. unfold type_hash_word, struct_members. cbn [struct_name].
  rewrite E, Hh. f_equal. f_equal.
  clear E. revert ms. induction fields as [|f fr IH]; intros [|m mr]; try reflexivity.
  cbn [field_words concat]. f_equal. apply IH.
Qed.

(** an atomic value: its kind, the two relations unfolded, and the arm of [encode_value] *)
Ltac atom :=
  match goal with k : kind |- _ => destruct k as [[n|]|n|n| | | |name|inner size]; try contradiction end;
  cbn [has_type denotes] in *; rewrite encode_value_eq.

Lemma value_complete tys k j tv :
  prims_sized P -> prims_denote P den_u den_i den_bytes den_addr ->
  ht tys k tv -> dn tys j k tv -> ev tys k j = Ok (ed tys k tv).
Proof.
  intros Hsized [DU DI DB DA]. revert j k.
  induction tv as [b|a|v|z|b|b|s|l IHl|fields IHf] using tval_ind'; intros j k HT DN.
  - atom. subst j. destruct b; reflexivity.
  - atom. apply enc_address_eq; [apply DA; exact DN|exact HT].
  - atom. destruct HT as [H1 H2].
    destruct (enc_uint_cases _ n j v (proj2 (DU _ _) DN) H2) as [[_ E]|[Hge _]]; [exact E|lia].
  - atom. destruct HT as (H1 & H2 & H3).
    destruct (enc_int_cases _ n j z (proj2 (DI _ _) DN) H3) as [[_ E]|[Hno _]]; [exact E|].
    destruct (Hno (conj H1 H2)).
  - atom. destruct (enc_bytesN_cases (p_keccak P) _ n j b (proj2 (DB _ _) DN)) as [[_ E]|[Hno _]]; [exact E|].
    destruct (Hno (conj (proj2 HT) (proj1 HT))).
  - atom. apply enc_bytes_dyn_ok. eexists. split; [apply DB, DN|reflexivity].
  - atom. subst j. reflexivity.
  - destruct k as [[?|]| | | | | | |inner size]; try contradiction.
    apply ht_array in HT as [Hs HF]. apply dn_array in DN as (js & -> & DF).
    rewrite <- (Forall2_same_length _ _ _ DF) in Hs. apply size_ok_iff in Hs.
    rewrite (encode_value_array P Hsized), ed_array, Hs.
    rewrite (omapM_all_ok (ev tys inner) js (map (ed tys inner) l)); [reflexivity|].
    clear Hs. induction DF as [|x t jr lr Hxt _ IH]; [constructor|].
    inversion HF; subst. inversion IHl; subst. cbn [map]. constructor; [auto|apply IH; assumption].
  - destruct k as [[?|]| | | | | |name| ]; try contradiction.
    apply ht_struct in HT as (ms & E & [h Hh] & HF).
    apply dn_struct in DN as (kvs & -> & N1 & N2 & Hk & ms' & E' & DF).
    rewrite E in E'. injection E' as <-.
    rewrite encode_value_struct, (struct_hash_eq P Hsized), E, Hh. cbn [bind].
    rewrite (ed_struct tys name ms h fields E Hh).
    rewrite <- (ht_field_names _ _ _ HF) in N2, Hk.
    rewrite (members_words_complete (ev tys) ms kvs (field_words (ed tys) ms fields) N1 N2);
      [reflexivity| |exact Hk].
    clear E N2 Hk. revert DF IHf. induction HF as [|m f mr fr [Hn Ht] _ IH]; intros DF IHf; [constructor|].
    inversion DF as [|? ? ? ? (v & Hv & Hd) DFr]; subst. inversion IHf as [|? ? IH1 IH2]; subst.
    cbn [field_words]. constructor; [|apply IH; assumption].
    exists v. split; [rewrite Hn; exact (obj_get_in _ _ _ Hv)|apply IH1; assumption].
Qed.

Lemma value_sound_atoms tys j k w :
  prims_ranged P -> prims_denote P den_u den_i den_bytes den_addr ->
  match k with KStruct _ | KArray _ _ => False | _ => True end ->
  ev tys k j = Ok w -> exists tv, ht tys k tv /\ dn tys j k tv /\ w = ed tys k tv.
Proof.
  intros Hranged [DU DI DB DA] Hk H. rewrite encode_value_eq in H.
  pose proof (num_u256_range P Hranged j) as RU. pose proof (num_i256_range P Hranged j) as RI.
  destruct k as [[n|]|n|n| | | | | ]; try contradiction.
  - apply enc_bytesN_ok in H as (b & Hb%DB & Hl & Hle & ->).
    exists (VBytesN b). cbn [has_type denotes enc_data]. auto.
  - apply enc_bytes_dyn_ok in H as (b & Hb%DB & ->).
    exists (VBytes b). cbn [has_type denotes enc_data]. auto.
  - apply (enc_uint_ok _ _ _ _ RU) in H as (v & Hv & Hlt & ->). specialize (RU v Hv). apply DU in Hv.
    exists (VUint v). cbn [has_type denotes enc_data]. auto.
  - apply (enc_int_ok _ _ _ _ RI) in H as (z & Hz & [Hn Hr] & ->). specialize (RI z Hz). apply DI in Hz.
    exists (VInt z). cbn [has_type denotes enc_data]. auto.
  - apply enc_bool_ok in H as (b & -> & ->).
    exists (VBool b). cbn [has_type denotes enc_data]. auto.
  - apply enc_address_ok in H as (a & Ha%DA & Hl & ->).
    exists (VAddr a). cbn [has_type denotes enc_data]. auto.
  - apply enc_string_ok in H as (s & -> & ->).
    exists (VString s). cbn [has_type denotes enc_data]. auto.
Qed.

Lemma value_sound tys k j w :
  prims_sized P -> prims_ranged P -> prims_denote P den_u den_i den_bytes den_addr ->
  json_wf j -> ev tys k j = Ok w ->
  exists tv, ht tys k tv /\ dn tys j k tv /\ w = ed tys k tv.
Proof.
  intros Hsized Hranged Hdenote. revert k w.
  induction j as [ |b|n|z|m e|s|l IHl|kvs IHk] using json_ind'; intros k w Hwf H;
    destruct k as [ | | | | | |name|inner size];
    try (apply value_sound_atoms; [exact Hranged|exact Hdenote|exact I|exact H]); try discriminate H.
  - (* an array at an array type *)
    rewrite (encode_value_array P Hsized) in H. destruct (size_ok size l) eqn:Hsz; [|discriminate].
    apply omap_ok in H as (ws & Hws & ->). apply omapM_ok in Hws.
    apply json_wf_arr in Hwf.
    assert (Hex : exists tvs, Forall (ht tys inner) tvs /\ Forall2 (fun x t => dn tys x inner t) l tvs /\
                              ws = map (ed tys inner) tvs).
    { clear Hsz. induction Hws as [|x y lr wr Hxy _ IH].
      - exists []. repeat split; constructor.
      - inversion IHl as [|? ? Hx IHr]; subst. inversion Hwf as [|? ? Wx Wr]; subst.
        destruct (Hx inner y Wx Hxy) as (t & T1 & T2 & ->).
        destruct (IH IHr Wr) as (ts & S1 & S2 & ->).
        exists (t :: ts). repeat split; constructor; assumption. }
    destruct Hex as (tvs & HF & DF & ->).
    exists (VArr tvs). split; [|split].
    + apply ht_array. split; [|exact HF].
      rewrite <- (Forall2_same_length _ _ _ DF). apply size_ok_iff, Hsz.
    + apply dn_array. exists l. split; [reflexivity|exact DF].
    + rewrite ed_array. reflexivity.
  - (* an object at a struct type *)
    rewrite encode_value_struct in H.
    apply (struct_hash_ok_inv P Hsized) in H as (ms & th & ws & E & Hth & Hm & ->).
    apply json_wf_obj in Hwf as [N1 Wk].
    destruct (members_words_ok _ _ _ _ _ Hm) as [F2 Hkeys]. rewrite app_nil_r in Hkeys.
    assert (Hex : exists fields, Forall2 (ht_field tys) ms fields /\
                                 Forall2 (dn_field tys kvs) ms fields /\
                                 ws = field_words (ed tys) ms fields).
    { clear Hm Hkeys E. induction F2 as [|m y mr wr (v & Hv & Hvy) _ IH].
      - exists []. repeat split; constructor.
      - destruct IH as (fs & S1 & S2 & ->).
        rewrite Forall_forall in IHk, Wk.
        destruct (IHk (m_name m, v) Hv (m_kind m) y (Wk (m_name m, v) Hv) Hvy) as (t & T1 & T2 & ->).
        exists ((m_name m, t) :: fs). repeat split.
        + constructor; [split; [reflexivity|exact T1]|exact S1].
        + constructor; [exists v; split; [exact (obj_get_nodup _ _ _ N1 Hv)|exact T2]|exact S2]. }
    destruct Hex as (fields & HF & DF & ->).
    pose proof (ht_field_names _ _ _ HF) as Hnames.
    exists (VStruct fields). split; [|split].
    + apply ht_struct. exists ms. repeat split; eauto.
    + apply dn_struct. exists kvs. repeat split; try assumption.
      * rewrite <- Hnames. exact (Permutation_NoDup Hkeys N1).
      * intros key Hin. rewrite <- Hnames. exact (Permutation_in _ Hkeys Hin).
      * exists ms. split; assumption.
    + symmetry. apply ed_struct; assumption.
Qed.

Lemma blob_of_fields_inv t p d m b :
  blob_of_fields t p d m = Ok b -> d = JObj (b_domain b) /\ m = JObj (b_message b).
Proof.
  unfold blob_of_fields. intros H. apply bind_ok in H as (tys & _ & H).
  apply bind_ok in H as (pr & _ & H). apply bind_ok in H as (dm & Hd & H).
  apply bind_ok in H as (ms & Hm & [= <-]). cbn [b_domain b_message].
  destruct d; try discriminate. destruct m; try discriminate.
  injection Hd as <-. injection Hm as <-. split; reflexivity.
Qed.

Lemma blob_of_json_wf j b :
  blob_of_json j = Ok b -> json_wf j ->
  json_wf (JObj (b_domain b)) /\ json_wf (JObj (b_message b)).
Proof.
  destruct j as [ | | | | | |l|kvs]; try discriminate.
  - destruct l as [|t [|p [|d [|m [|? ?]]]]]; try discriminate. cbn [blob_of_json].
    intros H W. apply blob_of_fields_inv in H as [<- <-].
    apply json_wf_arr in W. rewrite Forall_forall in W. split; apply W; cbn [In]; auto.
  - cbn [blob_of_json].
    destruct (obj_get (s2l "types") kvs) as [t|]; [|discriminate].
    destruct (obj_get (s2l "primaryType") kvs) as [p|]; [|discriminate].
    destruct (obj_get (s2l "domain") kvs) as [d|] eqn:Ed; [|discriminate].
    destruct (obj_get (s2l "message") kvs) as [m|] eqn:Em; [|discriminate].
    intros H W. apply blob_of_fields_inv in H as [<- <-].
    apply json_wf_obj in W as [_ W]. rewrite Forall_forall in W.
    apply obj_get_in in Ed, Em. split; [exact (W _ Ed)|exact (W _ Em)].
Qed.

Lemma struct_sound tys name obj w :
  prims_sized P -> prims_ranged P -> prims_denote P den_u den_i den_bytes den_addr ->
  json_wf (JObj obj) -> sh tys name obj = Ok w ->
  exists fields, ht tys (KStruct name) (VStruct fields) /\
                 dn tys (JObj obj) (KStruct name) (VStruct fields) /\
                 w = hash_struct (p_keccak P) (p_type_hash P) tys name fields.
Proof.
  intros Hsized Hranged Hdenote Wo Ho. rewrite <- encode_value_struct in Ho.
  destruct (value_sound tys _ _ w Hsized Hranged Hdenote Wo Ho) as (tv & T1 & T2 & ->).
  destruct tv; try contradiction. exists fields. repeat split; assumption.
Qed.

End Refinement.

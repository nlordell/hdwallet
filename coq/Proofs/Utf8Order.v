(** UTF-8 preserves order: for Unicode scalar values the lexicographic order on code point
    sequences ([text_lt], the model's key order) is the lexicographic order of the UTF-8 bytes
    ([Ord for str], the key order of Rust's [BTreeMap<&str, _>]).  Used by C08 (type half). *)
(*EMPTY*)
From Coq Require Import List NArith Lia.
From HDW Require Import Lib.Bytes Model.Eip712Types Spec.Eip712TypeSpec Proofs.TextOrder.
Import ListNotations.
Open Scope N_scope.

Lemma text_lt_app_prefix p : forall a b, text_lt a b -> text_lt (p ++ a) (p ++ b).
Proof. induction p as [|x p IH]; intros a b H; [assumption|]. cbn [app]. apply text_lt_tail. auto. Qed.

Lemma text_lt_first_diff a b : text_lt a b <-> bytes_lt a b.
Proof.
  split.
  - induction 1 as [y b|x y a b Hxy|x a b Hab IH].
    + left. exists y, b. reflexivity.
    + right. exists [], x, y, a, b. auto.
    + destruct IH as [(y & r & ->)|(p & x' & y' & a' & b' & -> & -> & Hlt)].
      * left. exists y, r. reflexivity.
      * right. exists (x :: p), x', y', a', b'. auto.
  - intros [(y & r & ->)|(p & x & y & a' & b' & -> & -> & Hlt)].
    + rewrite <- (app_nil_r a) at 1. apply text_lt_app_prefix. constructor.
    + apply text_lt_app_prefix. apply text_lt_head. assumption.
Qed.

Lemma utf8_cons c r : utf8 (c :: r) = utf8_char c ++ utf8 r.
Proof. reflexivity. Qed.

Lemma text_ltb_head x y a b : x < y -> text_ltb (x :: a) (y :: b) = true.
Proof. intros H. cbn [text_ltb]. apply N.ltb_lt in H. rewrite H. reflexivity. Qed.

Lemma text_ltb_same x a b : text_ltb (x :: a) (x :: b) = text_ltb a b.
Proof. cbn [text_ltb]. rewrite N.ltb_irrefl, N.eqb_refl. reflexivity. Qed.

Lemma lex64 c d : c < d -> c / 64 < d / 64 \/ c / 64 = d / 64 /\ c mod 64 < d mod 64.
Proof. lia. Qed.

(** Lead bytes grow with the length class ([< 0x80], [0xC0..], [0xE0..], [0xF0..]), so between
    classes the first byte decides.  Within a class the bytes are fixed offsets plus the base-64
    digits of the code point, most significant first, and [lex64] finds the first digit that
    differs. *)
Lemma utf8_char_lt c d ra rb :
  c < d -> d < 0x110000 -> text_ltb (utf8_char c ++ ra) (utf8_char d ++ rb) = true.
Proof.
  intros Hcd Hd.
  assert (D : forall o x y a b, x < y -> text_ltb (o + x :: a) (o + y :: b) = true)
    by (intros; apply text_ltb_head, N.add_lt_mono_l; assumption).
  destruct (utf8_char_cases c) as [[Hc ->]|[[Hc ->]|[[Hc ->]|[Hc ->]]]],
           (utf8_char_cases d) as [[Hd' ->]|[[Hd' ->]|[[Hd' ->]|[Hd' ->]]]];
    try (exfalso; lia); cbn [app]; try (apply text_ltb_head; lia).
  (* left: both of two, both of three, both of four bytes; every goal closes by [D] *)
  - destruct (lex64 c d Hcd) as [K1|[-> K1]]; [|rewrite text_ltb_same]; auto.
  - destruct (lex64 c d Hcd) as [K1|[-> K1]];
      [destruct (lex64 _ _ K1) as [K2|[-> K2]]|]; rewrite ?text_ltb_same; auto.
  - rewrite !(N.mod_small _ 8) by lia.
    destruct (lex64 c d Hcd) as [K1|[-> K1]];
      [destruct (lex64 _ _ K1) as [K2|[-> K2]]; [destruct (lex64 _ _ K2) as [K3|[-> K3]]|]|];
      rewrite ?text_ltb_same; auto.
Qed.

Lemma utf8_char_nonempty c : exists x r, utf8_char c = x :: r.
Proof. destruct (utf8_char_cases c) as [[_ ->]|[[_ ->]|[[_ ->]|[_ ->]]]]; eauto. Qed.

Lemma utf8_lt a b :
  Forall (fun c => c < 0x110000) b -> text_lt a b -> text_lt (utf8 a) (utf8 b).
Proof.
  intros Hb H. revert Hb. induction H as [y b|x y a b Hxy|x a b Hab IH]; intros Hb.
  - rewrite utf8_cons. destruct (utf8_char_nonempty y) as (x & r & ->). constructor.
  - rewrite !utf8_cons. apply text_ltb_spec. apply utf8_char_lt; [assumption|].
    inversion Hb; assumption.
  - rewrite !utf8_cons. apply text_lt_app_prefix. apply IH. inversion Hb; assumption.
Qed.

Lemma text_lt_utf8 a b :
  Forall (fun c => c < 0x110000) a -> Forall (fun c => c < 0x110000) b ->
  (text_lt a b <-> bytes_lt (utf8 a) (utf8 b)).
Proof.
  intros Ha Hb. rewrite <- text_lt_first_diff. split; [apply utf8_lt; assumption|].
  intros H. destruct (text_lt_trichotomy a b) as [Hlt|[->|Hgt]]; [assumption| |].
  - destruct (text_lt_irrefl _ H).
  - apply utf8_lt in Hgt; [|assumption].
    destruct (text_lt_irrefl _ (text_lt_trans _ _ _ H Hgt)).
Qed.

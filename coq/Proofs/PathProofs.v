(** Proofs about the HD path text model ([Model/Path.v]) — property C14.

    [parse_path] maps [parse_component] over the pieces of [split_on 47]; [split_on] and [join]
    are inverse on pieces without a '/', and [parse_component t = Ok c] holds exactly when
    [spells t c].  Acceptance and soundness are these two facts put together; every rejection
    exhibits one piece on which [parse_component] fails ([reject_piece]). *)
From Coq Require Import String.
From Coq Require Import List NArith Lia.
From HDW Require Import Lib.Outcome Lib.Bits Lib.Bytes Lib.Decimal Model.Path.
Import ListNotations.
Open Scope N_scope.

(** * [split_on] and [join] *)

Lemma split_on_nonempty sep s : split_on sep s <> [].
Proof.
  destruct s as [|c r]; cbn [split_on]; [discriminate|].
  destruct (c =? sep); [discriminate|]. destruct (split_on sep r); discriminate.
Qed.

Lemma split_on_sep sep r : split_on sep (sep :: r) = [] :: split_on sep r.
Proof. cbn [split_on]. rewrite N.eqb_refl. reflexivity. Qed.

Lemma split_on_other sep c r :
  c <> sep -> exists p ps, split_on sep r = p :: ps /\ split_on sep (c :: r) = (c :: p) :: ps.
Proof.
  intros Hc. cbn [split_on]. destruct (N.eqb_spec c sep) as [E|_]; [contradiction|].
  destruct (split_on sep r) as [|p ps] eqn:E; [exfalso; eapply split_on_nonempty; eassumption|].
  exists p, ps. split; reflexivity.
Qed.

Lemma join_cons sep a l : l <> [] -> join sep (a :: l) = a ++ sep :: join sep l.
Proof. destruct l; [congruence|reflexivity]. Qed.

Lemma join_cons_head sep c p ps : join sep ((c :: p) :: ps) = c :: join sep (p :: ps).
Proof. destruct ps; reflexivity. Qed.

Lemma join_split sep s : join sep (split_on sep s) = s.
Proof.
  induction s as [|c r IH]; [reflexivity|].
  destruct (N.eq_dec c sep) as [->|Hc].
  - rewrite split_on_sep, join_cons by apply split_on_nonempty. rewrite IH. reflexivity.
  - destruct (split_on_other sep c r Hc) as (p & ps & E1 & E2).
    rewrite E2, join_cons_head. f_equal. rewrite <- IH at 1. rewrite E1. reflexivity.
Qed.

Lemma split_on_app sep a b :
  split_on sep (a ++ sep :: b) = split_on sep a ++ split_on sep b.
Proof.
  induction a as [|c a IH].
  - rewrite app_nil_l, split_on_sep. reflexivity.
  - rewrite <- app_comm_cons. destruct (N.eq_dec c sep) as [->|Hc].
    + rewrite !split_on_sep, IH. reflexivity.
    + destruct (split_on_other sep c a Hc) as (p & ps & E1 & E2).
      destruct (split_on_other sep c (a ++ sep :: b) Hc) as (p' & ps' & E1' & E2').
      rewrite E2, E2'. rewrite IH, E1 in E1'. cbn [app] in E1'. inversion E1'. reflexivity.
Qed.

Lemma split_on_join sep l :
  l <> [] -> split_on sep (join sep l) = flat_map (split_on sep) l.
Proof.
  induction l as [|a l IH]; [congruence|]. intros _.
  destruct l as [|b l].
  - cbn [join flat_map]. rewrite app_nil_r. reflexivity.
  - rewrite join_cons by discriminate. rewrite split_on_app, IH by discriminate. reflexivity.
Qed.

Lemma split_on_single sep a : ~ In sep a -> split_on sep a = [a].
Proof.
  induction a as [|c a IH]; intros H; [reflexivity|].
  assert (Hc : c <> sep) by (intros ->; apply H; left; reflexivity).
  destruct (split_on_other sep c a Hc) as (p & ps & E1 & E2).
  rewrite E2. rewrite IH in E1 by (intros Hin; apply H; right; exact Hin).
  inversion E1. reflexivity.
Qed.

Lemma split_join sep l :
  l <> [] -> Forall (fun t => ~ In sep t) l -> split_on sep (join sep l) = l.
Proof.
  intros Hne H. rewrite split_on_join by exact Hne. clear Hne.
  induction H as [|t l Ht _ IH]; [reflexivity|].
  cbn [flat_map]. rewrite split_on_single by exact Ht. rewrite IH. reflexivity.
Qed.

Lemma in_split_join sep l t : In t l -> ~ In sep t -> In t (split_on sep (join sep l)).
Proof.
  intros Hin Ht. rewrite split_on_join by (intros ->; destruct Hin).
  apply in_flat_map. exists t. split; [exact Hin|]. rewrite split_on_single by exact Ht. left. reflexivity.
Qed.

Lemma in_join sep x l : In x (join sep l) -> x = sep \/ exists t, In t l /\ In x t.
Proof.
  induction l as [|a l IH]; [intros []|]. destruct l as [|b l].
  - intros H. right. exists a. split; [left; reflexivity|exact H].
  - rewrite join_cons by discriminate. intros H. apply in_app_or in H as [H|[H|H]].
    + right. exists a. split; [left; reflexivity|exact H].
    + left. symmetry. exact H.
    + destruct (IH H) as [E|(t & Ht & Hxt)]; [left; exact E|right].
      exists t. split; [right; exact Ht|exact Hxt].
Qed.

(** * [parse_component] *)

Lemma strip_suffix_char_snoc c s x :
  strip_suffix_char c (s ++ [x]) = if x =? c then Some s else None.
Proof.
  unfold strip_suffix_char. rewrite rev_app_distr. cbn [rev app].
  rewrite rev_involutive. reflexivity.
Qed.

Lemma strip_suffix_char_some c s r : strip_suffix_char c s = Some r -> s = r ++ [c].
Proof.
  unfold strip_suffix_char. intros H. destruct (rev s) as [|x l] eqn:E; [discriminate|].
  destruct (N.eqb_spec x c) as [->|]; [|discriminate]. inversion H; subst r.
  rewrite <- (rev_involutive s), E. reflexivity.
Qed.

(** [parse_component] once the apostrophe has been split off. *)
Definition component_of (hardened : bool) (value : text) : outcome component :=
  match u32_of_str value with
  | None => Err
  | Some v => if v <? 2147483648 then Ok (if hardened then Hardened v else Normal v) else Err
  end.

Lemma parse_component_eq s :
  parse_component s =
  match strip_suffix_char 39 s with
  | Some value => component_of true value
  | None => component_of false s
  end.
Proof. unfold parse_component. destruct (strip_suffix_char 39 s); reflexivity. Qed.

Lemma component_of_spelled h plus ds :
  (plus = [] \/ plus = [43]) -> ds <> [] -> all_digits ds ->
  component_of h (plus ++ ds) =
    if dec_value ds <? 2 ^ 31 then Ok (if h then Hardened (dec_value ds) else Normal (dec_value ds)) else Err.
Proof.
  intros Hp Hne Hd. unfold component_of, u32_of_str. rewrite parse_uint_spelled by assumption.
  fold (dec_value ds). cbv zeta. change (2 ^ 31) with 2147483648.
  destruct (N.leb_spec (dec_value ds) 4294967295) as [Hle|Hgt]; [reflexivity|].
  replace (dec_value ds <? 2147483648) with false by lia. reflexivity.
Qed.

Lemma component_of_ok h value c :
  component_of h value = Ok c ->
  (if h then [39] else []) = comp_suffix c /\ u32_of_str value = Some (comp_value c) /\ comp_value c < 2 ^ 31.
Proof.
  unfold component_of. destruct (u32_of_str value) as [v|]; [|discriminate].
  destruct (N.ltb_spec v 2147483648); [|discriminate]. intros [= <-]. destruct h; auto.
Qed.

Lemma component_of_graceful h value : graceful (component_of h value).
Proof.
  unfold component_of. destruct (u32_of_str value) as [v|]; [|apply graceful_err].
  destruct (v <? 2147483648); [apply graceful_ok|apply graceful_err].
Qed.

Lemma parse_component_shaped plus ds (h : bool) :
  (plus = [] \/ plus = [43]) -> ds <> [] -> all_digits ds ->
  parse_component (plus ++ ds ++ (if h then [39] else [])) =
    if dec_value ds <? 2 ^ 31 then Ok (if h then Hardened (dec_value ds) else Normal (dec_value ds)) else Err.
Proof.
  intros Hp Hne Hd. rewrite parse_component_eq. destruct h.
  - rewrite app_assoc, strip_suffix_char_snoc. apply component_of_spelled; assumption.
  - rewrite app_nil_r.
    assert (S : strip_suffix_char 39 (plus ++ ds) = None).
    { destruct (exists_last Hne) as (r & x & ->). apply Forall_app in Hd as [_ Hx].
      rewrite app_assoc, strip_suffix_char_snoc. replace (x =? 39) with false by (inversion Hx; lia).
      reflexivity. }
    rewrite S. apply component_of_spelled; assumption.
Qed.

Lemma parse_component_complete t c : spells t c -> parse_component t = Ok c.
Proof.
  intros (plus & ds & -> & Hp & Hne & Hd & Hv & Hr).
  replace (comp_suffix c) with (if comp_hardened c then [39] else []) by (destruct c; reflexivity).
  rewrite parse_component_shaped, Hv by assumption.
  replace (comp_value c <? 2 ^ 31) with true by lia. destruct c; reflexivity.
Qed.

Lemma parse_component_sound t c : parse_component t = Ok c -> spells t c.
Proof.
  rewrite parse_component_eq. intros H.
  assert (E : exists (h : bool) value, t = value ++ (if h then [39] else []) /\ component_of h value = Ok c).
  { destruct (strip_suffix_char 39 t) as [value|] eqn:E.
    - exists true, value. split; [apply strip_suffix_char_some, E|exact H].
    - exists false, t. split; [symmetry; apply app_nil_r|exact H]. }
  destruct E as (h & value & -> & H'). apply component_of_ok in H' as (-> & U & Hr).
  apply parse_uint_sound in U as (_ & ds & Hs & Hne & Hd & Hv). symmetry in Hv.
  destruct Hs as [-> | ->]; [exists []|exists [43]]; exists ds; cbn [app]; auto 10.
Qed.

Lemma parse_component_graceful t : graceful (parse_component t).
Proof. rewrite parse_component_eq. destruct (strip_suffix_char 39 t); apply component_of_graceful. Qed.

Lemma spells_shape t c : spells t c -> comp_shape t.
Proof.
  intros (plus & ds & E & Hp & Hne & Hd & _). exists plus, ds, (comp_suffix c).
  repeat split; try assumption. destruct c; [right|left]; reflexivity.
Qed.

Lemma shape_chars t : comp_shape t -> Forall (fun x => 48 <= x <= 57 \/ x = 43 \/ x = 39) t.
Proof.
  intros (plus & ds & suffix & -> & Hp & _ & Hd & Hs).
  apply Forall_app; split; [destruct Hp as [->| ->]; auto|].
  apply Forall_app; split; [|destruct Hs as [->| ->]; auto].
  eapply Forall_impl; [|exact Hd]. auto.
Qed.

Lemma shape_no_slash t : comp_shape t -> ~ In 47 t.
Proof. intros Hs Hin. apply shape_chars in Hs. rewrite Forall_forall in Hs. specialize (Hs 47 Hin). lia. Qed.

Lemma parse_component_unshaped t : ~ comp_shape t -> parse_component t = Err.
Proof.
  intros Hs. apply graceful_not_ok_err; [apply parse_component_graceful|].
  intros c Hc. eapply Hs, spells_shape, parse_component_sound, Hc.
Qed.

Lemma spells_in_range t c : spells t c -> comp_value c < 2 ^ 31.
Proof. intros (plus & ds & _ & _ & _ & _ & _ & H). exact H. Qed.

Lemma spells_canonical c : comp_value c < 2 ^ 31 -> spells (print_component c) c.
Proof.
  intros H. exists [], (decimal (comp_value c)). cbn [app].
  split; [destruct c; cbn [print_component comp_value comp_suffix]; [reflexivity|rewrite app_nil_r; reflexivity]|].
  split; [left; reflexivity|]. split; [apply decimal_nonempty|]. split; [apply decimal_digits|].
  split; [apply decimal_value|exact H].
Qed.

(** * [parse_path] *)

Lemma parse_path_rooted r :
  parse_path (s2l "m/" ++ r) = omapM parse_component (split_on 47 r).
Proof. unfold parse_path. rewrite strip_prefix_app. reflexivity. Qed.

Lemma total_parse s : graceful (parse_path s).
Proof.
  unfold parse_path. destruct (strip_prefix (s2l "m/") s) as [r|]; [|apply graceful_err].
  apply omapM_graceful. intros t _. apply parse_component_graceful.
Qed.

Lemma total_for_index i : graceful (for_index i).
Proof. apply total_parse. Qed.

Lemma sound s p :
  parse_path s = Ok p ->
  exists comps, comps <> [] /\ s = s2l "m/" ++ join 47 comps /\ Forall2 spells comps p.
Proof.
  unfold parse_path. intros H. destruct (strip_prefix (s2l "m/") s) as [r|] eqn:E; [|discriminate].
  apply strip_prefix_some in E as ->. exists (split_on 47 r).
  split; [apply split_on_nonempty|]. split; [rewrite join_split; reflexivity|].
  eapply Forall2_impl; [apply parse_component_sound|apply omapM_ok, H].
Qed.

Lemma complete comps p :
  comps <> [] -> Forall2 spells comps p -> parse_path (s2l "m/" ++ join 47 comps) = Ok p.
Proof.
  intros Hne F. rewrite parse_path_rooted, split_join; [|exact Hne|].
  - apply omapM_all_ok. eapply Forall2_impl; [apply parse_component_complete|exact F].
  - eapply Forall2_Forall_l; [|exact F]. intros t c Htc. eapply shape_no_slash, spells_shape, Htc.
Qed.

Lemma parsed_in_range s p : parse_path s = Ok p -> p <> [] /\ in_range p.
Proof.
  intros H. apply sound in H as (comps & Hne & _ & F). split.
  - intros ->. inversion F. congruence.
  - eapply Forall2_Forall_r; [apply spells_in_range|exact F].
Qed.

Lemma print_path_join p :
  p <> [] -> print_path p = s2l "m/" ++ join 47 (map print_component p).
Proof.
  destruct p as [|c cs]; [congruence|]. intros _. unfold print_path. change (s2l "m/") with [109; 47].
  cbn [app flat_map]. do 2 f_equal. revert c. induction cs as [|d cs IH]; intros c.
  - apply app_nil_r.
  - cbn [flat_map map app] in *. rewrite IH. symmetry. apply join_cons. discriminate.
Qed.

Lemma accept_canonical p : p <> [] -> in_range p -> parse_path (print_path p) = Ok p.
Proof.
  intros Hne Hr. rewrite print_path_join by exact Hne. apply complete.
  - destruct p; [congruence|discriminate].
  - clear Hne. induction Hr as [|c cs Hc _ IH]; constructor; [apply spells_canonical; exact Hc|exact IH].
Qed.

(** * The BIP-32 index word *)

Lemma index_is_add c :
  comp_value c < 2 ^ 31 ->
  bip32_index c = match c with Hardened v => v + 2 ^ 31 | Normal v => v end.
Proof.
  destruct c as [v|v]; cbn [comp_value bip32_index]; intros H; [|reflexivity].
  apply (lor_pow2_add v 31 H).
Qed.

Lemma bip32_index_inj c d :
  comp_value c < 2 ^ 31 -> comp_value d < 2 ^ 31 -> bip32_index c = bip32_index d -> c = d.
Proof.
  intros Hc Hd. rewrite (index_is_add c Hc), (index_is_add d Hd).
  destruct c as [v|v], d as [w|w]; cbn [comp_value] in *; intros E; try (f_equal; lia); exfalso; lia.
Qed.

Lemma map_index_inj p q : in_range p -> in_range q -> map bip32_index p = map bip32_index q -> p = q.
Proof.
  intros Hp. revert q. induction Hp as [|c p Hc _ IH]; intros q Hq E.
  - destruct q; [reflexivity|discriminate].
  - destruct q as [|d q]; [discriminate|]. inversion Hq as [|? ? Hd Hq']; subst.
    cbn [map] in E. inversion E as [[E1 E2]]. f_equal; [apply bip32_index_inj; assumption|apply IH; assumption].
Qed.

(** * Rejections *)

Lemma reject_piece r t :
  In t (split_on 47 r) -> parse_component t = Err -> parse_path (s2l "m/" ++ r) = Err.
Proof.
  intros Hin He. apply graceful_not_ok_err; [apply total_parse|]. intros p H.
  rewrite parse_path_rooted in H. destruct (omapM_ok_in _ _ _ _ H Hin) as (c & Hc). congruence.
Qed.

Lemma reject_component pre t post :
  ~ In 47 t -> parse_component t = Err ->
  parse_path (s2l "m/" ++ join 47 (pre ++ t :: post)) = Err.
Proof. intros Ht He. eapply reject_piece; [apply in_split_join; [apply in_elt|exact Ht]|exact He]. Qed.

Lemma reject_out_of_range_spelled pre post plus digits suffix :
  (plus = [] \/ plus = [43]) -> digits <> [] -> all_digits digits -> (suffix = [] \/ suffix = [39]) ->
  2 ^ 31 <= dec_value digits ->
  parse_path (s2l "m/" ++ join 47 (pre ++ (plus ++ digits ++ suffix) :: post)) = Err.
Proof.
  intros Hp Hne Hd Hs Hv. apply reject_component.
  - apply shape_no_slash. exists plus, digits, suffix. auto.
  - assert (E : exists h : bool, suffix = if h then [39] else [])
      by (destruct Hs as [->| ->]; [exists false|exists true]; reflexivity).
    destruct E as (h & ->). rewrite parse_component_shaped by assumption.
    replace (dec_value digits <? 2 ^ 31) with false by lia. reflexivity.
Qed.

Lemma reject_out_of_range pre post v suffix :
  2 ^ 31 <= v -> (suffix = [] \/ suffix = [39]) ->
  parse_path (s2l "m/" ++ join 47 (pre ++ (decimal v ++ suffix) :: post)) = Err.
Proof.
  intros Hv Hs.
  apply (reject_out_of_range_spelled pre post [] (decimal v) suffix); auto using decimal_nonempty, decimal_digits.
  unfold dec_value. rewrite decimal_value. exact Hv.
Qed.

Lemma for_index_text i :
  s2l "m/44'/60'/0'/0/" ++ decimal i =
  print_path [Hardened 44; Hardened 60; Hardened 0; Normal 0; Normal i].
Proof.
  unfold print_path. cbn [flat_map print_component].
  change (decimal 44) with (s2l "44"). change (decimal 60) with (s2l "60"). change (decimal 0) with (s2l "0").
  rewrite app_nil_r. reflexivity.
Qed.

Lemma for_index_ok i :
  i < 2 ^ 31 -> for_index i = Ok [Hardened 44; Hardened 60; Hardened 0; Normal 0; Normal i].
Proof.
  intros Hi. unfold for_index. rewrite for_index_text. apply accept_canonical; [discriminate|].
  repeat constructor; try exact Hi; reflexivity.
Qed.

Lemma for_index_reject i : 2 ^ 31 <= i -> for_index i = Err.
Proof.
  intros Hi.
  (* "m/" and five pieces joined by '/'; the last one is [decimal i] with no "'" after it *)
  change (for_index i) with
    (parse_path (s2l "m/" ++ join 47 ([s2l "44'"; s2l "60'"; s2l "0'"; s2l "0"] ++ [decimal i]))).
  rewrite <- (app_nil_r (decimal i)). apply reject_out_of_range; auto.
Qed.

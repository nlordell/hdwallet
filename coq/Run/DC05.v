(** Entry points of the correspondence check for C05: the abstract sections of
    Model/Ecdsa.v and Spec/EcdsaSpec.v instantiated with the executable secp256k1
    primitive (Prim/Secp256k1.v) and the RFC 6979 generator (Prim/Rfc6979.v) over
    HMAC-SHA256 (Prim/Hmac.v).  No theorem depends on this file. *)
From Coq Require Import List Bool NArith ZArith Uint63.
From HDW Require Import Lib.Outcome Lib.Bytes Run.Pack.
From HDW Require Import Prim.Secp256k1 Prim.Hmac Prim.Rfc6979 Model.Ecdsa Spec.EcdsaSpec.
Import ListNotations.
Local Open Scope Z_scope.

(* ---- the instance ---- *)

(** affine x as an integer; 0 for the point at infinity (k256: the affine identity has
    x = y = 0) *)
Definition secp_xcoord (P : point) : Z := match P with Some (x, _) => x | None => 0 end.
Definition secp_yodd (P : point) : bool := match P with Some (_, y) => Z.odd y | None => false end.

(** decompression; [lift_x] uses [None] for failure, a successful result is never the point
    at infinity *)
Definition secp_lift (x : Z) (v : bool) : option point :=
  match lift_x x v with Some q => Some (Some q) | None => None end.

(** [generate_k(d.to_repr(), ORDER, digest bytes, b"")]: key and digest as 32 big-endian
    bytes; the digest value is NOT reduced *)
Definition secp_nonce (d h : Z) : Z :=
  Z.of_N (rfc6979_k hmac_sha256 (be_fixed 32 (Z.to_N d)) (be_fixed 32 (Z.to_N h)) (Z.to_N secp_n)).

Definition secp_sign : Z -> Z -> outcome (Z * Z * bool) :=
  Ecdsa.sign point secp_G pt_mul secp_xcoord secp_yodd secp_n inv_n secp_nonce.
Definition secp_verify : point -> Z -> Z -> Z -> bool :=
  EcdsaSpec.verify point secp_G pt_mul pt_add secp_xcoord secp_n inv_n.
Definition secp_recover : Z -> Z -> Z -> bool -> option point :=
  EcdsaSpec.recover point secp_G pt_mul pt_add pt_neg secp_lift secp_n inv_n.
Definition secp_rfc6979_ecdsa : Z -> Z -> outcome (Z * Z * bool) :=
  EcdsaSpec.rfc6979_ecdsa point secp_G pt_mul secp_xcoord secp_yodd secp_n inv_n secp_nonce.

Definition zbytes32 (x : Z) : list N := be_fixed 32 (Z.to_N x).
Definition is32 (h : list N) : bool := Nat.eqb (length h) 32.

(* ---- entry points ---- *)

(** [PrivateKey::new(d)?.try_sign(Digest(h))]: fields r (32), s (32), y parity (1 byte).
    [Err] if the key is 0 or >= n ([PrivateKey::new] fails) or the digest is not 32 bytes. *)
Definition c05_sign (d : N) (h : list N) : list int :=
  out_fields
    (if (d =? 0)%N || (Z.to_N secp_n <=? d)%N || negb (is32 h) then Err else
     match secp_sign (Z.of_N d) (Z.of_N (be_val h)) with
     | Ok sg => Ok [zbytes32 (sig_r sg); zbytes32 (sig_s sg); [Z.to_N (sig_y_parity sg)]]
     | Err => Err
     | Panic => Panic
     | OutOfFuel => OutOfFuel
     end).

(** 65-byte uncompressed SEC1 key -> point ([None] of [option] when malformed / off curve) *)
Definition parse_uncompressed (pub : list N) : option point :=
  match pub with
  | 4%N :: rest =>
      if Nat.eqb (length rest) 64 then
        let P : point := Some (Z.of_N (be_val (firstn 32 rest)), Z.of_N (be_val (skipn 32 rest))) in
        if on_curve P then Some P else None
      else None
  | _ => None
  end.

(** the spec's [verify] (SEC 1 4.1.4; high s is NOT rejected, unlike k256's verifier):
    one byte, 1 = valid.  A malformed key verifies nothing. *)
Definition c05_verify (pub : list N) (h : list N) (r s : N) : list int :=
  out1 (Ok [match parse_uncompressed pub with
            | Some Q => if is32 h && secp_verify Q (Z.of_N (be_val h)) (Z.of_N r) (Z.of_N s)
                        then 1%N else 0%N
            | None => 0%N
            end]).

(** the spec's [recover] behind the checks that k256's
    [VerifyingKey::recover_from_prehash] makes (harness [prim.recover]): r, s in [1, n-1]
    ([Signature::from_scalars]); parity byte 0/1 (2 and 3 = "x was reduced" have no
    counterpart here and give [Err]); high s rejected (k256 verifies the signature with
    the recovered key and its verifier refuses high s); the point at infinity is not a key. *)
Definition c05_recover (h : list N) (r s parity : N) : list int :=
  out1
    (let r := Z.of_N r in
     let s := Z.of_N s in
     if negb (is32 h) || (r =? 0) || (secp_n <=? r) || (s =? 0) || (secp_n <=? s)
        || (1 <? parity)%N || Ecdsa.is_high secp_n s
     then Err else
     match secp_recover (Z.of_N (be_val h)) r s (parity =? 1)%N with
     | Some (Some q) => Ok (ser_uncompressed (Some q))
     | _ => Err
     end).

(** the RFC 6979 nonce, 32 bytes (all zero if the generator ran out of fuel) *)
Definition c05_nonce (d : N) (h : list N) : list int :=
  out1 (Ok (zbytes32 (secp_nonce (Z.of_N d) (Z.of_N (be_val h))))).

(* ---- sanity vectors ---- *)

(** src/account.rs, test [ganache_deterministic_signature] (digest = keccak256 of the
    EIP-191 text of "Hello World!") *)
Example ex_ganache_signature :
  secp_sign 0x4f3edf983ac636a65a842ce7c78d9aa706d3b113bce9c46f30d7d21715b23b1d
            0xec3608877ecbf8084c29896b7eab2a368b2b3c8d003288584d145613dfa4706c
  = Ok (0x408790f153cbfa2722fc708a57d97a43b24429724cf060df7c915d468c43bd84,
        0x61c96aac95ce37d7a31087b6634f4a3ea439a9f704b5c818584fa2a32fa83859, true).
Proof. vm_compute. reflexivity. Qed.

(** digests at and above n (reference: the harness, i.e. the implementation): the digest
    enters the DRBG unreduced (with h mod n the nonces, hence r, would be those of h = 0, 1) *)
Example ex_digest_n :
  secp_sign 0x4f3edf983ac636a65a842ce7c78d9aa706d3b113bce9c46f30d7d21715b23b1d secp_n
  = Ok (0xb370d21561b4db846413c5da9dc69560ca33daa4c6882016d0e39ed1ed032d12,
        0x43e00c59d9526de0d8d145db164c180f68244b0025536487d6a57c5c99a1b67a, true).
Proof. vm_compute. reflexivity. Qed.

Example ex_digest_max :
  secp_sign 0x4f3edf983ac636a65a842ce7c78d9aa706d3b113bce9c46f30d7d21715b23b1d (2^256 - 1)
  = Ok (0x61d0056b132b1112f763d72ffdd70308258c6ddef5b841c6b90fd5a87d3a3d7a,
        0x65f28ee6188fbaefd01b9fbcfe3a59c97d14fd046e19d0663d8af46a5c663f1a, true).
Proof. vm_compute. reflexivity. Qed.

(** the widely published secp256k1 RFC 6979 vector: key 1, SHA-256("Satoshi Nakamoto") *)
Example ex_nonce_satoshi :
  secp_nonce 1 0xa0dc65ffca799873cbea0ac274015b9526505daaaed385155425f7337704883e
  = 0x8f8a276c19f4149656b280621e358cce24f5f52542772691ee69063b74f15d15.
Proof. vm_compute. reflexivity. Qed.

(** the retry path of the DRBG, exercised with a small bound (4 rejected candidates;
    reference: Python hmac) *)
Example ex_nonce_retry :
  rfc6979_k hmac_sha256 (be_fixed 32 1)
    (be_fixed 32 0xa0dc65ffca799873cbea0ac274015b9526505daaaed385155425f7337704883e)
    (2 ^ 252)
  = 0x0e217ffc335a5f15e5d1dbbcb43673bfd39b9be9dbb8304fe2f414348f38f81e%N.
Proof. vm_compute. reflexivity. Qed.

(** fuel exhaustion (213 rejections needed, fuel 100) gives 0, and [sign] then errs *)
Example ex_nonce_fuel :
  rfc6979_k hmac_sha256 (be_fixed 32 1)
    (be_fixed 32 0xa0dc65ffca799873cbea0ac274015b9526505daaaed385155425f7337704883e)
    (2 ^ 250) = 0%N.
Proof. vm_compute. reflexivity. Qed.

(** verification and recovery of the ganache signature; a wrong digest does not verify *)
Example ex_verify_recover :
  let d := 0x4f3edf983ac636a65a842ce7c78d9aa706d3b113bce9c46f30d7d21715b23b1d in
  let h := 0xec3608877ecbf8084c29896b7eab2a368b2b3c8d003288584d145613dfa4706c in
  let r := 0x408790f153cbfa2722fc708a57d97a43b24429724cf060df7c915d468c43bd84 in
  let s := 0x61c96aac95ce37d7a31087b6634f4a3ea439a9f704b5c818584fa2a32fa83859 in
  secp_verify (pt_mul_G d) h r s = true /\
  secp_verify (pt_mul_G d) (h + 1) r s = false /\
  secp_recover h r s true = Some (pt_mul_G d) /\
  secp_recover h r s false <> Some (pt_mul_G d).
Proof. cbv zeta. rewrite ex_ganache. vm_compute. repeat split; try reflexivity. discriminate. Qed.

(** C01 — Mnemonic phrases and entropy are in exact BIP-39 correspondence.
    Statements; every proof is one [exact] of a lemma from [Proofs/] or a few lines combining such lemmas.

    SHA-256 is an opaque primitive: every theorem quantifies over an arbitrary function
    [sha256 : bytes -> bytes] that returns 32 bytes ([Prim/Sha256.v] is one such function:
    [Sha256.sha256_length], [Sha256.sha256_ok]).

    Model: [Model/Bip39.v] ([from_phrase], [to_phrase], [mnemonic_length], [mk_mnemonic] = the
    buffer [Mnemonic::random] builds from entropy bytes).  Specification: [Spec/Bip39Spec.v]
    ([bip39_indices ent] = the 11-bit groups of entropy ‖ first ENT/32 bits of SHA-256(entropy),
    [bip39_phrase] = their words separated by single spaces). *)
From Coq Require Import String.
From Coq Require Import List NArith Bool PeanoNat Sorted.
From HDW Require Import Lib.Outcome Lib.Radix Lib.Bytes Model.Wordlist Model.Bip39 Spec.Bip39Spec
  Proofs.WordlistProofs Proofs.Bip39Unpack Proofs.Bip39Proofs.
From HDW Require Prim.Sha256.
Import ListNotations.
Open Scope N_scope.

(** A phrase is accepted iff its white-space separated pieces are the words of
    [bip39_indices ent] for some entropy of 16, 20, 24, 28 or 32 bytes — i.e. 12, 15, 18, 21 or
    24 list words whose trailing ENT/32 bits are the leading bits of SHA-256(entropy). *)
Theorem C01_accept_iff : forall sha256 : bytes -> bytes,
  (forall x, length (sha256 x) = 32%nat) -> (forall x, bytes_ok (sha256 x)) ->
  forall t,
  (exists m, from_phrase sha256 t = Ok m) <->
  (exists ent, bytes_ok ent /\ valid_ent_len (length ent)
     /\ split_ws t = map word (bip39_indices sha256 ent)).
Proof.
  intros sha256 L O t. split.
  - intros [m H]. destruct (parse_value sha256 L O t m H) as (ent & H1 & H2 & H3 & _). eauto.
  - intros (ent & H1 & H2 & H3). eexists. exact (accept_complete sha256 L O t ent H1 H2 H3).
Qed.
Print Assumptions C01_accept_iff.

(** What is stored for an accepted phrase: entropy ‖ SHA-256(entropy) ‖ zeros, entropy length. *)
Theorem C01_parse_value : forall sha256 : bytes -> bytes,
  (forall x, length (sha256 x) = 32%nat) -> (forall x, bytes_ok (sha256 x)) ->
  forall t m, from_phrase sha256 t = Ok m ->
  exists ent, bytes_ok ent /\ valid_ent_len (length ent)
    /\ split_ws t = map word (bip39_indices sha256 ent) /\ m = mk_mnemonic sha256 ent.
Proof. exact parse_value. Qed.
Print Assumptions C01_parse_value.

(** Any other word count is an error. *)
Theorem C01_reject_count : forall (sha256 : bytes -> bytes) t,
  ~ valid_word_count (length (split_ws t)) -> from_phrase sha256 t = Err.
Proof. exact from_phrase_invalid_count. Qed.
Print Assumptions C01_reject_count.

(** Any word that is not in the list is an error. *)
Theorem C01_reject_unknown_word : forall sha256 : bytes -> bytes,
  (forall x, length (sha256 x) = 32%nat) -> (forall x, bytes_ok (sha256 x)) ->
  forall t,
  (exists w, In w (split_ws t) /\ search w = None) -> valid_word_count (length (split_ws t)) ->
  from_phrase sha256 t = Err.
Proof.
  intros sha256 L O t (w & Hin & Hw) Hv.
  rewrite (from_phrase_valid sha256 L O t Hv), (lookup_all_unknown _ w Hin Hw). reflexivity.
Qed.
Print Assumptions C01_reject_unknown_word.

(** All words known (indices [l]), count right, but [l] is not the BIP-39 encoding of the
    entropy bytes it starts with (= the checksum bits are wrong): error. *)
Theorem C01_reject_checksum : forall sha256 : bytes -> bytes,
  (forall x, length (sha256 x) = 32%nat) -> (forall x, bytes_ok (sha256 x)) ->
  forall t l,
  Forall2 (fun w i => search w = Some i) (split_ws t) l -> valid_word_count (length (split_ws t)) ->
  bip39_indices sha256 (leading_entropy l) <> l -> from_phrase sha256 t = Err.
Proof.
  intros sha256 L O t l Hl Hv Hne. apply lookup_all_forall2 in Hl.
  rewrite (from_phrase_valid sha256 L O t Hv), Hl, list_eqb_false by exact Hne. reflexivity.
Qed.
Print Assumptions C01_reject_checksum.

(** Everything that is not a BIP-39 phrase is an ordinary error. *)
Theorem C01_reject : forall sha256 : bytes -> bytes,
  (forall x, length (sha256 x) = 32%nat) -> (forall x, bytes_ok (sha256 x)) ->
  forall t,
  ~ (exists ent, bytes_ok ent /\ valid_ent_len (length ent)
       /\ split_ws t = map word (bip39_indices sha256 ent)) ->
  from_phrase sha256 t = Err.
Proof.
  intros sha256 L O t Hn. destruct (from_phrase_cases sha256 L O t) as [E|(ent & H1 & H2 & H3 & _)]; [exact E|].
  destruct Hn. eauto.
Qed.
Print Assumptions C01_reject.

(** Printing the mnemonic of an entropy value gives the BIP-39 phrase; the reported length is
    the number of words. *)
Theorem C01_print : forall sha256 : bytes -> bytes,
  (forall x, length (sha256 x) = 32%nat) -> (forall x, bytes_ok (sha256 x)) ->
  forall ent, bytes_ok ent -> valid_ent_len (length ent) ->
  to_phrase (mk_mnemonic sha256 ent) = Ok (bip39_phrase sha256 ent)
  /\ mnemonic_length (mk_mnemonic sha256 ent) = length (bip39_indices sha256 ent).
Proof. exact to_phrase_ok. Qed.
Print Assumptions C01_print.

(** parse (print ent) = ent, for every entropy of the five sizes ... *)
Theorem C01_roundtrip : forall sha256 : bytes -> bytes,
  (forall x, length (sha256 x) = 32%nat) -> (forall x, bytes_ok (sha256 x)) ->
  forall ent, bytes_ok ent -> valid_ent_len (length ent) ->
  from_phrase sha256 (bip39_phrase sha256 ent) = Ok (mk_mnemonic sha256 ent).
Proof. exact roundtrip. Qed.
Print Assumptions C01_roundtrip.

(** ... and print (parse t) = the same words joined by single spaces. *)
Theorem C01_canonical : forall sha256 : bytes -> bytes,
  (forall x, length (sha256 x) = 32%nat) -> (forall x, bytes_ok (sha256 x)) ->
  forall t m, from_phrase sha256 t = Ok m -> to_phrase m = Ok (join [32] (split_ws t)).
Proof. exact canonical. Qed.
Print Assumptions C01_canonical.

(** The reported length of an accepted phrase is its word count. *)
Theorem C01_length : forall sha256 : bytes -> bytes,
  (forall x, length (sha256 x) = 32%nat) -> (forall x, bytes_ok (sha256 x)) ->
  forall t m, from_phrase sha256 t = Ok m -> mnemonic_length m = length (split_ws t).
Proof.
  intros sha256 L O t m H. destruct (parse_value sha256 L O t m H) as (ent & Hok & Hv & -> & ->).
  rewrite map_length. exact (proj2 (to_phrase_ok sha256 L O ent Hok Hv)).
Qed.
Print Assumptions C01_length.

(** No input makes [from_phrase] panic (the length table protects the indexing; the two
    [debug_assert_eq!] hold; the inner loop needs at most two rounds) ... *)
Theorem C01_total : forall sha256 : bytes -> bytes,
  (forall x, length (sha256 x) = 32%nat) -> (forall x, bytes_ok (sha256 x)) ->
  forall t, graceful (from_phrase sha256 t).
Proof. exact total. Qed.
Print Assumptions C01_total.

(** ... and [to_phrase] never reads outside the 64-byte buffer. *)
Theorem C01_total_print : forall sha256 : bytes -> bytes,
  (forall x, length (sha256 x) = 32%nat) -> (forall x, bytes_ok (sha256 x)) ->
  forall ent, bytes_ok ent -> valid_ent_len (length ent) ->
  graceful (to_phrase (mk_mnemonic sha256 ent)).
Proof.
  intros sha256 L O ent Hok Hv. rewrite (proj1 (to_phrase_ok sha256 L O ent Hok Hv)). apply graceful_ok.
Qed.
Print Assumptions C01_total_print.

(** The unpacking loop, on its own: for [ws] all in the list with indices [l], within the
    seed's capacity, the loop ends with [bit_offset <= 8], [acc = X mod 2^64] and the bytes
    written are the big-endian digits of [X / 2^bit_offset], where [X] is [l] read in base 2048. *)
Theorem C01_unpack_loop : forall len ws,
  11 * N.of_nat (length ws) <= 8 * N.of_nat len + 8 ->
  match lookup_all ws with
  | None => unpack_loop len ws (0, 0, []) = Err
  | Some l => exists st', unpack_loop len ws (0, 0, []) = Ok st' /\ Inv (of_digits 2048 l) (length ws) st'
  end.
Proof. exact unpack_loop_top. Qed.
Print Assumptions C01_unpack_loop.

(** The embedded word list (2048 entries; one pass over the list by [vm_compute]):
    2048 words, strictly increasing in [str] order, lower-case ASCII, non-empty. *)
Theorem C01_wordlist :
  length wordlist = 2048%nat /\ StronglySorted lex_lt wordlist
  /\ Forall lower_ascii_word wordlist /\ Forall nonempty_no_ws wordlist.
Proof. exact wordlist_ok. Qed.
Print Assumptions C01_wordlist.

(** The word lookup finds exactly the words of the list, each at its index. *)
Theorem C01_search_word : forall i, i < 2048 -> search (word i) = Some i.
Proof. exact search_word. Qed.
Print Assumptions C01_search_word.

Theorem C01_search_sound : forall w i, search w = Some i -> word i = w /\ i < 2048.
Proof. exact search_sound. Qed.
Print Assumptions C01_search_sound.

Theorem C01_search_complete : forall w, (exists i, search w = Some i) <-> In w wordlist.
Proof. exact search_some_iff. Qed.
Print Assumptions C01_search_complete.

(** Non-vacuity: Unicode white space, empty pieces dropped; a 13-word phrase is an error
    whatever the hash function. *)
Example C01_example_split :
  split_ws ([0x3000; 32] ++ s2l "zoo" ++ [9; 10; 0x2003] ++ s2l "abandon" ++ [0x85])
  = [s2l "zoo"; s2l "abandon"]
  /\ search (s2l "zoo") = Some 2047 /\ search (s2l "Zoo") = None /\ word 3 = s2l "about".
Proof. vm_compute. repeat split. Qed.

Example C01_example_13_words : forall sha256 : bytes -> bytes,
  from_phrase sha256 (s2l "abandon abandon abandon abandon abandon abandon abandon abandon abandon abandon abandon abandon absent") = Err.
Proof. intros sha256. apply from_phrase_invalid_count. vm_compute. intuition discriminate. Qed.

(** With the executable SHA-256 of [Prim/Sha256.v] (an instance of the hypotheses): the test
    vectors of BIP-39 / the crate, a 15-word phrase, and a wrong checksum word. *)
Example C01_example_instance :
  (forall x, length (Sha256.sha256 x) = 32%nat) /\ (forall x, bytes_ok (Sha256.sha256 x)).
Proof. split; [exact Sha256.sha256_length|exact Sha256.sha256_ok]. Qed.

Example C01_example_vectors :
  from_phrase Sha256.sha256 (s2l "abandon abandon abandon abandon abandon abandon abandon abandon abandon abandon abandon about")
    = Ok (mk_mnemonic Sha256.sha256 (repeat 0 16))
  /\ from_phrase Sha256.sha256 (s2l "myth like bonus scare over problem client lizard pioneer submit female collect")
    = Ok (mk_mnemonic Sha256.sha256 [0x92; 0x90; 0x34; 0x65; 0xe0; 0x29; 0xdf; 0x56; 0xca; 0xb4; 0x16; 0xa5; 0x3b; 0x01; 0x53; 0x96])
  /\ bip39_phrase Sha256.sha256 (repeat 0 32)
    = s2l "abandon abandon abandon abandon abandon abandon abandon abandon abandon abandon abandon abandon abandon abandon abandon abandon abandon abandon abandon abandon abandon abandon abandon art"
  /\ to_phrase (mk_mnemonic Sha256.sha256 (map N.of_nat (seq 0 20)))
    = Ok (s2l "abandon amount liar amount expire adjust cage candy arch gather drum bullet absurd math exhibit")
  /\ from_phrase Sha256.sha256 (s2l "abandon abandon abandon abandon abandon abandon abandon abandon abandon abandon abandon abandon")
    = Err.
Proof. vm_compute. repeat split. Qed.

(** C05 for the EXECUTABLE instance that the correspondence check runs ([Run/DC05.v]):
    [secp_sign] = [Ecdsa.sign] over [Prim/Secp256k1.v] (BigZ field arithmetic, Jacobian
    double-and-add), [inv_n] = a^(n-2) mod n, [secp_nonce] = the RFC 6979 HMAC-DRBG of
    [Prim/Rfc6979.v] over [Prim/Hmac.v].

    Everything that [Props/C05.v] proves WITHOUT the group laws holds for this instance with
    no premise left: ranges of r and s, low s, the parity rule, determinism, and equality
    with the RFC 6979 signature (low-s normalised) for digests below n.  Validity and
    recoverability ([C05_valid], [C05_recover]) need the curve's group laws, which are NOT
    proved for [Prim/Secp256k1.v]; for the executable instance they stay validated by the
    differential check (implementation vs this instance vs an independent Python secp256k1)
    and by the [Example]s of [Prim/Secp256k1.v].  Of the premises of C05, [1 < n] is proved here
    ([C05k_n_gt1]) and [x_neg] up to a reduction mod p ([C05k_x_neg]). *)
From Coq Require Import ZArith Bool List.
From HDW Require Import Lib.Outcome Model.Ecdsa Spec.EcdsaSpec Proofs.EcdsaProofs.
From HDW Require Import Lib.Bytes Prim.Secp256k1 Prim.Hmac Prim.Rfc6979 Run.DC05.
Local Open Scope Z_scope.

Theorem C05k_n_gt1 : 1 < secp_n.
Proof. reflexivity. Qed.

(** r and s of every signature the executable instance returns: 1 <= r < n, 1 <= s <= n/2 *)
Theorem C05k_ranges : forall d h r s v,
  secp_sign d h = Ok (r, s, v) -> 0 < r < secp_n /\ 0 < s <= secp_n / 2.
Proof.
  exact (EcdsaProofs.sign_ranges point secp_G pt_mul secp_xcoord secp_yodd secp_n inv_n
           secp_nonce C05k_n_gt1).
Qed.

Theorem C05k_low_s : forall d h r s v,
  secp_sign d h = Ok (r, s, v) -> 2 * s <= secp_n /\ Ecdsa.is_high secp_n s = false.
Proof.
  exact (EcdsaProofs.C05_low_s point secp_G pt_mul secp_xcoord secp_yodd secp_n inv_n
           secp_nonce C05k_n_gt1).
Qed.

Theorem C05k_parity_flip : forall d h r s v,
  secp_sign d h = Ok (r, s, v) ->
  let R := pt_mul (secp_nonce d h) secp_G in
  let s0 := (inv_n (secp_nonce d h) * (h mod secp_n + (secp_xcoord R mod secp_n) * d)) mod secp_n in
  (secp_n / 2 < s0 -> s = secp_n - s0 /\ v = negb (secp_yodd R)) /\
  (s0 <= secp_n / 2 -> s = s0 /\ v = secp_yodd R).
Proof.
  exact (EcdsaProofs.C05_parity_flip point secp_G pt_mul secp_xcoord secp_yodd secp_n inv_n
           secp_nonce).
Qed.

Theorem C05k_deterministic : forall d d' h h',
  d = d' -> h = h' -> secp_sign d h = secp_sign d' h'.
Proof.
  exact (EcdsaProofs.C05_deterministic point secp_G pt_mul secp_xcoord secp_yodd secp_n inv_n
           secp_nonce).
Qed.

Theorem C05k_rfc6979 : forall d h,
  0 <= h < secp_n ->
  secp_sign d h = EcdsaSpec.low_s_normalise secp_n (secp_rfc6979_ecdsa d h).
Proof.
  exact (EcdsaProofs.C05_rfc6979 point secp_G pt_mul secp_xcoord secp_yodd secp_n inv_n
           secp_nonce).
Qed.

(** signing never panics or runs out of fuel: the only refusals are ordinary errors
    (k = 0, r = 0 or s = 0) *)
Theorem C05k_total : forall d h, graceful (secp_sign d h).
Proof.
  exact (EcdsaProofs.sign_total point secp_G pt_mul secp_xcoord secp_yodd secp_n inv_n secp_nonce).
Qed.

(** [pt_neg] keeps the x coordinate up to reduction mod p; premise [x_neg] of C05
    ([xcoord (neg (k·G)) = xcoord (k·G)]) follows where the x coordinate of k·G lies in [0, p),
    which is not shown here *)
Theorem C05k_x_neg : forall P,
  secp_xcoord (pt_neg P) = secp_xcoord P mod secp_p.
Proof.
  intros [[x y]|]; reflexivity.
Qed.

(** premise [nonce_range] of C05 for the executable RFC 6979 generator, up to the model's
    own fuel bound: the retry loop returns a candidate in [1, n-1], or 0 when 100 successive
    candidates were rejected (probability < 2^-12700; the Rust loop is unbounded) - and then
    [secp_sign] is an ordinary error, never a signature made with a bad nonce. *)
Theorem C05k_nonce_range : forall d h, 0 <= secp_nonce d h < secp_n.
Proof.
  intros d h. unfold secp_nonce, Prim.Rfc6979.rfc6979_k.
  destruct (Prim.Rfc6979.drbg_new _ _ _) as [K V].
  pose proof (Prim.Rfc6979.drbg_loop_range Prim.Hmac.hmac_sha256 Prim.Rfc6979.rfc6979_fuel K V (Z.to_N secp_n)
                ltac:(reflexivity)) as H.
  split; [apply N2Z.is_nonneg|].
  apply N2Z.inj_lt in H. rewrite Z2N.id in H by (vm_compute; discriminate). exact H.
Qed.

Theorem C05k_nonce_zero_is_error : forall d h, secp_nonce d h = 0 -> secp_sign d h = Err.
Proof.
  exact (EcdsaProofs.sign_nonce_zero point secp_G pt_mul secp_xcoord secp_yodd secp_n inv_n secp_nonce).
Qed.

(** a concrete, non-trivial instance (key 1, digest 1): the hypotheses of the theorems above
    are met by an actual signature, computed by the kernel's VM *)
Example C05k_witness :
  exists r s v, secp_sign 1 1 = Ok (r, s, v) /\ 0 < r < secp_n /\ 2 * s <= secp_n.
Proof.
  assert (Hok : is_ok (secp_sign 1 1) = true) by (vm_compute; reflexivity).
  destruct (secp_sign 1 1) as [[[r s] v]| | |] eqn:E; try discriminate Hok.
  exists r, s, v. split; [reflexivity|].
  exact (conj (proj1 (C05k_ranges 1 1 r s v E)) (proj1 (C05k_low_s 1 1 r s v E))).
Qed.

Print Assumptions C05k_n_gt1.
Print Assumptions C05k_ranges.
Print Assumptions C05k_low_s.
Print Assumptions C05k_parity_flip.
Print Assumptions C05k_deterministic.
Print Assumptions C05k_rfc6979.
Print Assumptions C05k_total.
Print Assumptions C05k_x_neg.
Print Assumptions C05k_nonce_range.
Print Assumptions C05k_nonce_zero_is_error.
Print Assumptions C05k_witness.

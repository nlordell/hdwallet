(** C04 — Public key and address are the secp256k1 / Keccak-256 images of the secret.
    Statements only; every proof is a lemma of [Proofs/AccountProofs.v] or a few lines from one.

    Keccak-256 ([keccak]) and the map from a scalar to the 65-byte uncompressed SEC1 encoding
    of scalar·G ([pubkey65]) are parameters of the statements; what is assumed about them is
    written in each statement (output sizes; the leading 0x04 tag).  [Run/DC04.v] instantiates
    them with [Prim.Keccak.keccak256] and [Prim.Secp256k1.ser_uncompressed (pt_mul_G k)] and
    checks [Z.of_N curve_n = secp_n]. *)
From Coq Require Import String.
From Coq Require Import List NArith Bool PeanoNat.
From HDW Require Import Lib.Outcome Lib.Bytes Lib.Hex Model.Account Spec.AccountSpec Proofs.AccountProofs.
Import ListNotations.
Open Scope N_scope.

(** * Which byte strings are keys *)

(** A 32-byte string is a key iff its big-endian value is in [1, n-1]; the key is that value;
    zero and values >= n are rejected. *)
Theorem C04_accept_32 : forall b, length b = 32%nat ->
  (key_new b = Ok (be_val b) <-> 1 <= be_val b < curve_n)
  /\ (~ (1 <= be_val b < curve_n) -> key_new b = Err).
Proof. intros b H. apply key_accept. rewrite H. repeat constructor. Qed.
Print Assumptions C04_accept_32.

(** Any other length is rejected or taken as the same big-endian integer (in range). *)
Theorem C04_other_lengths : forall b, length b <> 32%nat ->
  key_new b = Err \/ (key_new b = Ok (be_val b) /\ 1 <= be_val b < curve_n).
Proof.
  intros b _. destruct (key_new_spec b) as [[[_ Hr] E]|[_ E]]; [right; exact (conj E Hr)|left; exact E].
Qed.
Print Assumptions C04_other_lengths.

(** Whatever the length: an accepted key is the big-endian integer of the input — never a
    different key —, lies in [1, n-1], and came from 24 to 32 bytes. *)
Theorem C04_key_value : forall b k, key_new b = Ok k ->
  k = be_val b /\ 1 <= k < curve_n /\ (24 <= length b <= 32)%nat.
Proof. exact key_value. Qed.
Print Assumptions C04_key_value.

(** Lengths below 24 and above 32 are always rejected ... *)
Theorem C04_length_table : forall b, (length b < 24 \/ length b > 32)%nat -> key_new b = Err.
Proof. exact key_new_out. Qed.
Print Assumptions C04_length_table.

(** ... lengths 24..32 are decided by the range check alone (elliptic-curve left-pads with zeros). *)
Theorem C04_accept_24_32 : forall b, (24 <= length b <= 32)%nat ->
  (key_new b = Ok (be_val b) <-> 1 <= be_val b < curve_n)
  /\ (~ (1 <= be_val b < curve_n) -> key_new b = Err).
Proof. exact key_accept. Qed.
Print Assumptions C04_accept_24_32.

(** [PrivateKey::new] returns a key or an ordinary error on every input. *)
Theorem C04_total : forall b, graceful (key_new b).
Proof.
  intros b. destruct (key_new_spec b) as [[_ ->]|[_ ->]]; [apply graceful_ok|apply graceful_err].
Qed.
Print Assumptions C04_total.

(** [secret] is the 32-byte big-endian scalar and reads back as the same key ... *)
Theorem C04_secret_roundtrip : forall k, 1 <= k < curve_n -> key_new (secret k) = Ok k.
Proof. exact secret_roundtrip. Qed.
Print Assumptions C04_secret_roundtrip.

(** ... and the secret of a key made from 32 bytes is those 32 bytes
    ([bytes_ok]: the input is a byte string). *)
Theorem C04_secret_of_key : forall b k,
  bytes_ok b -> length b = 32%nat -> key_new b = Ok k -> secret k = b.
Proof.
  intros b k Hok Hlen H. rewrite (secret_of_short_key b k Hok H), Hlen. reflexivity.
Qed.
Print Assumptions C04_secret_of_key.

(** In general the secret is the input left-padded with zeros to 32 bytes. *)
Theorem C04_secret_of_short_key : forall b k,
  bytes_ok b -> key_new b = Ok k -> secret k = repeat 0 (32 - length b) ++ b.
Proof. exact secret_of_short_key. Qed.
Print Assumptions C04_secret_of_short_key.

Theorem C04_secret_length : forall k, length (secret k) = 32%nat.
Proof. exact secret_length. Qed.
Print Assumptions C04_secret_length.

(** * Public key and address *)

(** [public] passes [pubkey65] through unchanged: its length is what is assumed of [pubkey65]
    (the conclusion is the hypothesis). *)
Theorem C04_public_length : forall (pubkey65 : N -> bytes),
  (forall k, 1 <= k < curve_n -> length (pubkey65 k) = 65%nat) ->
  forall k, 1 <= k < curve_n -> length (public pubkey65 k) = 65%nat.
Proof. intros pubkey65 Hlen. exact Hlen. Qed.
Print Assumptions C04_public_length.

(** The address is the last 20 bytes of Keccak-256 of the 64 coordinate bytes (the encoding
    without its 0x04 tag); the debug assertion on the tag never fires. *)
Theorem C04_address : forall (keccak : bytes -> bytes) (pubkey65 : N -> bytes),
  (forall x, length (keccak x) = 32%nat) ->
  (forall k, 1 <= k < curve_n -> length (pubkey65 k) = 65%nat) ->
  (forall k, 1 <= k < curve_n -> hd 0 (pubkey65 k) = 4) ->
  forall k, 1 <= k < curve_n ->
    address keccak pubkey65 k = Ok (skipn 12 (keccak (skipn 1 (pubkey65 k))))
    /\ length (skipn 1 (pubkey65 k)) = 64%nat
    /\ length (skipn 12 (keccak (skipn 1 (pubkey65 k)))) = 20%nat
    /\ exists pre, keccak (skipn 1 (pubkey65 k)) = pre ++ skipn 12 (keccak (skipn 1 (pubkey65 k)))
                   /\ length pre = 12%nat.
Proof. exact address_eq. Qed.
Print Assumptions C04_address.

(** 0x04 followed by the 64 coordinate bytes that are hashed. *)
Theorem C04_public_shape : forall (pubkey65 : N -> bytes),
  (forall k, 1 <= k < curve_n -> length (pubkey65 k) = 65%nat) ->
  (forall k, 1 <= k < curve_n -> hd 0 (pubkey65 k) = 4) ->
  forall k, 1 <= k < curve_n ->
    public pubkey65 k = 4 :: skipn 1 (pubkey65 k) /\ length (skipn 1 (pubkey65 k)) = 64%nat.
Proof. exact public_shape. Qed.
Print Assumptions C04_public_shape.

(** Every accepted key has a 20-byte address. *)
Theorem C04_address_of_key : forall (keccak : bytes -> bytes) (pubkey65 : N -> bytes),
  (forall x, length (keccak x) = 32%nat) ->
  (forall k, 1 <= k < curve_n -> length (pubkey65 k) = 65%nat) ->
  (forall k, 1 <= k < curve_n -> hd 0 (pubkey65 k) = 4) ->
  forall b k, key_new b = Ok k ->
    exists a, address keccak pubkey65 k = Ok a /\ length a = 20%nat.
Proof.
  intros keccak pubkey65 Hk Hl Hh b k H. apply key_value in H as (_ & Hr & _).
  destruct (address_eq keccak pubkey65 Hk Hl Hh k Hr) as (Ha & _ & Hlen & _). eauto.
Qed.
Print Assumptions C04_address_of_key.

(** * EIP-55 display *)

(** The displayed address is "0x" and 40 characters that lower-case to the hex digits of the
    address; character i is the capital of digit i exactly when that digit is a letter and
    nibble i of Keccak-256 of the 40 lower-case characters is >= 8, otherwise digit i itself. *)
Theorem C04_eip55 : forall (keccak : bytes -> bytes),
  (forall x, bytes_ok (keccak x)) ->
  forall a, bytes_ok a -> length a = 20%nat ->
  exists body,
    eip55 keccak a = s2l "0x" ++ body
    /\ length body = 40%nat
    /\ map to_lower body = hex_encode a
    /\ forall i, (i < 40)%nat ->
         let c := nth i (hex_encode a) 0 in
         let up := hex_letter c /\ 8 <= nth i (nibbles (keccak (hex_encode a))) 0 in
         (up -> nth i body 0 = c - 32) /\ (~ up -> nth i body 0 = c).
Proof.
  intros keccak Hk a Hok Hlen. destruct (eip55_body keccak Hk a Hok Hlen) as (body & He & Hl & Hm & Hc).
  refine (ex_intro _ body (conj He (conj Hl (conj Hm _)))).
  intros i Hi. destruct (Hc i Hi) as (Hup & Hno & _). auto.
Qed.
Print Assumptions C04_eip55.

(** The same as a statement about letter case. *)
Theorem C04_eip55_case : forall (keccak : bytes -> bytes),
  (forall x, bytes_ok (keccak x)) ->
  forall a, bytes_ok a -> length a = 20%nat ->
  exists body,
    eip55 keccak a = s2l "0x" ++ body
    /\ length body = 40%nat
    /\ map to_lower body = hex_encode a
    /\ forall i, (i < 40)%nat ->
         (is_upper (nth i body 0) = true
          <-> hex_letter (nth i (hex_encode a) 0)
              /\ 8 <= nth i (nibbles (keccak (hex_encode a))) 0)
         /\ (is_upper (nth i body 0) = true -> hex_LETTER (nth i body 0)).
Proof.
  intros keccak Hk a Hok Hlen. destruct (eip55_body keccak Hk a Hok Hlen) as (body & He & Hl & Hm & Hc).
  refine (ex_intro _ body (conj He (conj Hl (conj Hm _)))).
  intros i Hi. destruct (Hc i Hi) as (_ & _ & Hiff & HL). auto.
Qed.
Print Assumptions C04_eip55_case.

(** 42 characters; the part after "0x" is a hex spelling of the address bytes. *)
Theorem C04_eip55_decodes : forall (keccak : bytes -> bytes),
  (forall x, bytes_ok (keccak x)) ->
  forall a, bytes_ok a -> length a = 20%nat ->
  length (eip55 keccak a) = 42%nat
  /\ exists body, eip55 keccak a = s2l "0x" ++ body /\ hex_decode body = Some a.
Proof.
  intros keccak Hk a Hok Hlen. destruct (eip55_body keccak Hk a Hok Hlen) as (body & He & Hl & Hm & _).
  split; [rewrite He, app_length, Hl; reflexivity|].
  exists body. split; [exact He|]. apply hex_decode_complete; assumption.
Qed.
Print Assumptions C04_eip55_decodes.

(** Non-vacuity: boundary values of the range check. *)
Example C04_example_one : key_new (repeat 0 31 ++ [1]) = Ok 1.
Proof. vm_compute. reflexivity. Qed.
Example C04_example_zero : key_new (repeat 0 32) = Err.
Proof. vm_compute. reflexivity. Qed.
Example C04_example_n : key_new (be_fixed 32 curve_n) = Err /\ key_new (be_fixed 32 (curve_n - 1)) = Ok (curve_n - 1).
Proof. split; vm_compute; reflexivity. Qed.
Example C04_example_lengths :
  key_new [1] = Err /\ key_new (repeat 0 22 ++ [1]) = Err /\ key_new (repeat 0 23 ++ [1]) = Ok 1
  /\ key_new (repeat 0 30 ++ [1]) = Ok 1 /\ key_new (repeat 0 32 ++ [1]) = Err.
Proof. repeat split; vm_compute; reflexivity. Qed.

(** The formal record of the defects found on the pinned tree (DESIGN.md section 8, rows D1..D15;
    /verif/KNOWN_FINDINGS.txt, [fixed:] lines).

    For every row: [Dk_refuted] evaluates the model of the ORIGINAL code ([Model/Pinned.v]) on the
    witness input of the row and exhibits the violation of the given property; [Dk_repaired]
    evaluates the CURRENT model on the same input.  Everything is proved by computation on
    closed terms.  None of these statements is an obligation of a property check. *)
From Coq Require Import String.
From Coq Require Import List NArith ZArith Bool.
From HDW Require Import Lib.Outcome Lib.Bytes Lib.Hex Lib.Decimal.
From HDW Require Import Model.Json Model.Num Model.Bip39 Model.Entropy Model.Path Model.SigText
  Model.Rlp Model.Tx Model.Eip712Kind Model.Domain Model.Eip712Types Model.Eip712Values
  Model.Prefix Model.Pinned.
From HDW Require Model.Vanity.
From HDW Require Prim.Sha256.
Import ListNotations.
Open Scope N_scope.

Local Notation sha256 := Prim.Sha256.sha256.

(** * D1 (C01, C12) — 13- and 16-word phrases were accepted, [new -n 13] generated one *)

(** 12 x "abandon" + "absent" *)
Theorem D1_refuted :
  exists t, length (split_ws t) = 13%nat /\ exists m, pinned_from_phrase sha256 t = Ok m.
Proof. exists d1_phrase13. split; [ vm_compute; reflexivity | eexists; vm_compute; reflexivity ]. Qed.
Print Assumptions D1_refuted.

(** 15 x "abandon" + "bomb" *)
Theorem D1_refuted_16 :
  exists t, length (split_ws t) = 16%nat /\ exists m, pinned_from_phrase sha256 t = Ok m.
Proof. exists d1_phrase16. split; [ vm_compute; reflexivity | eexists; vm_compute; reflexivity ]. Qed.
Print Assumptions D1_refuted_16.

(** [new -n 13] on 17 zero bytes of entropy printed that 13-word phrase *)
Theorem D1_refuted_new :
  fst (pinned_new_cmd sha256 13 d1_entropy) = Ok d1_phrase13.
Proof. vm_compute. reflexivity. Qed.
Print Assumptions D1_refuted_new.

Theorem D1_repaired :
  from_phrase sha256 d1_phrase13 = Err /\ from_phrase sha256 d1_phrase16 = Err
  /\ fst (new_cmd sha256 13 d1_entropy) = Err.
Proof. vm_compute. repeat split. Qed.
Print Assumptions D1_repaired.

(** * D2 (C17) — 14, 17, 19, 20, 22 or 23 list words: index out of bounds in the unpacking loop *)

Theorem D2_refuted : exists t, pinned_from_phrase sha256 t = Panic.
Proof. exists (d2_phrase 14). vm_compute. reflexivity. Qed.
Print Assumptions D2_refuted.

Theorem D2_refuted_all :
  Forall (fun n => length (split_ws (d2_phrase n)) = n
                   /\ pinned_from_phrase sha256 (d2_phrase n) = Panic)
         [14; 17; 19; 20; 22; 23]%nat.
Proof. repeat constructor; vm_compute; reflexivity. Qed.
Print Assumptions D2_refuted_all.

Theorem D2_repaired :
  Forall (fun n => from_phrase sha256 (d2_phrase n) = Err) [14; 17; 19; 20; 22; 23]%nat.
Proof. repeat constructor; vm_compute; reflexivity. Qed.
Print Assumptions D2_repaired.

(** * D3 (C14) — [m/2147483648'] accepted and derived the key of [m/0']; [m/4294967295] accepted *)

Theorem D3_refuted :
  pinned_parse_path (s2l "m/2147483648'") = Ok [Hardened 2147483648]
  /\ bip32_index (Hardened 2147483648) = bip32_index (Hardened 0).
Proof. vm_compute. split; reflexivity. Qed.
Print Assumptions D3_refuted.

Theorem D3_refuted_normal :
  pinned_parse_path (s2l "m/4294967295") = Ok [Normal 4294967295].
Proof. vm_compute. reflexivity. Qed.
Print Assumptions D3_refuted_normal.

Theorem D3_repaired :
  parse_path (s2l "m/2147483648'") = Err /\ parse_path (s2l "m/4294967295") = Err.
Proof. vm_compute. split; reflexivity. Qed.
Print Assumptions D3_repaired.

(** * D4 (C14, C17) — [--account-index 4294967296]: [Path::for_index] unwrapped the parse error;
      2^31 <= index < 2^32 gave a path no BIP-32 wallet derives *)

Theorem D4_refuted : pinned_for_index 4294967296 = Panic.
Proof. vm_compute. reflexivity. Qed.
Print Assumptions D4_refuted.

Theorem D4_refuted_nonstandard :
  pinned_for_index 2147483648
  = Ok [Hardened 44; Hardened 60; Hardened 0; Normal 0; Normal 2147483648].
Proof. vm_compute. reflexivity. Qed.
Print Assumptions D4_refuted_nonstandard.

Theorem D4_repaired : for_index 4294967296 = Err /\ for_index 2147483648 = Err.
Proof. vm_compute. split; reflexivity. Qed.
Print Assumptions D4_repaired.

(** * D5 (C17, C18) — [new --vanity-prefix 0x1 --vanity-account-index 4294967296 -j 2]: every
      worker panicked, the main thread waited forever

    In [Model/Vanity.v] the address of a candidate starts with the account path; with the
    original [for_index] that is a panic, a panicking worker sends nothing, and the answer of
    [run_vanity] is [OutOfFuel] ("still waiting") whichever worker is designated the winner. *)
Theorem D5_refuted : forall (rest : outcome bytes) p streams winner,
  Vanity.run_vanity unit (fun _ => bind (pinned_for_index 4294967296) (fun _ => rest))
    p 2 streams winner (Ok tt) = OutOfFuel.
Proof.
  intros rest p streams winner. unfold Vanity.run_vanity.
  replace (pinned_for_index 4294967296) with (@Panic path) by (vm_compute; reflexivity).
  cbn [bind N.eqb Pos.eqb]. destruct (N.of_nat winner <? 2); [ | reflexivity ].
  destruct (nth winner streams []); reflexivity.
Qed.
Print Assumptions D5_refuted.

(** in the current code every worker reports the error, and so does the command *)
Theorem D5_repaired : forall (rest : outcome bytes) p streams winner,
  (winner < 2)%nat ->
  Vanity.run_vanity unit (fun _ => bind (for_index 4294967296) (fun _ => rest))
    p 2 streams winner (Ok tt) = Err.
Proof.
  intros rest p streams winner Hw. unfold Vanity.run_vanity.
  replace (for_index 4294967296) with (@Err path) by (vm_compute; reflexivity).
  cbn [bind N.eqb Pos.eqb].
  destruct winner as [ | [ | w ] ];
    [ | | exfalso; inversion Hw as [ | ? H1 ]; inversion H1 as [ | ? H2 ]; inversion H2 ];
    (cbn [N.of_nat Pos.of_succ_nat N.ltb N.compare Pos.compare Pos.compare_cont];
     destruct (nth _ streams []); reflexivity).
Qed.
Print Assumptions D5_repaired.

(** * D6 (C15) — the parser refused the [0x] that [Display] prints *)

Theorem D6_refuted : exists σ, valid_sig σ /\ pinned_parse_sig (print_sig σ) = Err.
Proof.
  exists d6_sig. split.
  - repeat split; vm_compute; (reflexivity || discriminate).
  - vm_compute. reflexivity.
Qed.
Print Assumptions D6_refuted.

Theorem D6_repaired : parse_sig (print_sig d6_sig) = Ok d6_sig.
Proof. vm_compute. reflexivity. Qed.
Print Assumptions D6_repaired.

(** * D7 (C15, C17) — signature text with r = 0 or r >= n: [from_scalars(..).unwrap()] *)

(** "00" x 32, then s = 1, then v = 27 *)
Theorem D7_refuted : pinned_parse_sig d7_text_r0 = Panic.
Proof. vm_compute. reflexivity. Qed.
Print Assumptions D7_refuted.

(** r = 2^256 - 1; and the same after the prefix repair alone *)
Theorem D7_refuted_rmax :
  pinned_parse_sig d7_text_rmax = Panic /\ pinned_parse_sig_0x (s2l "0x" ++ d7_text_r0) = Panic.
Proof. vm_compute. split; reflexivity. Qed.
Print Assumptions D7_refuted_rmax.

Theorem D7_repaired :
  parse_sig d7_text_r0 = Err /\ parse_sig d7_text_rmax = Err
  /\ parse_sig (s2l "0x" ++ d7_text_r0) = Err.
Proof. vm_compute. repeat split. Qed.
Print Assumptions D7_repaired.

(** * D8 (C11, C17) — legacy [chainId] = 0x7fff..ffee = 2^255 - 18: [Signature::v] overflowed *)

Theorem D8_refuted :
  exists t, pinned_legacy_of_json d8_tx = Ok t
    /\ l_chain_id t = Some (2 ^ 255 - 18)
    /\ valid_sig d8_sig
    /\ sig_v d8_sig (l_chain_id t) = Panic
    /\ encode (Legacy t) d8_sig = Panic.
Proof.
  eexists. split; [ vm_compute; reflexivity | ].
  split; [ vm_compute; reflexivity | ].
  split; [ repeat split; vm_compute; (reflexivity || discriminate) | ].
  split; vm_compute; reflexivity.
Qed.
Print Assumptions D8_refuted.

Theorem D8_repaired :
  legacy_of_json d8_tx = Err /\ tx_of_json (JObj d8_tx) = Err.
Proof. vm_compute. split; reflexivity. Qed.
Print Assumptions D8_repaired.

(** the bound is tight: one less is accepted and signs with v = 2^256 - 2 *)
Theorem D8_repaired_tight :
  chainid_field (Some (JStr (s2l "0x7" ++ repeat 102 61 ++ s2l "ed"))) = Ok (Some (2 ^ 255 - 19))
  /\ sig_v d8_sig (Some (2 ^ 255 - 19)) = Ok (2 ^ 256 - 2).
Proof. vm_compute. split; reflexivity. Qed.
Print Assumptions D8_repaired_tight.

(** * D9 (C13) — ["nonce": -1] and [-1.0] accepted as 2^256 - 1 *)

Theorem D9_refuted : pinned_permissive_u256 (JI64 (-1)) = Ok (2 ^ 256 - 1).
Proof. vm_compute. reflexivity. Qed.
Print Assumptions D9_refuted.

Theorem D9_refuted_float : pinned_permissive_u256 (JF64 (-1) 0) = Ok (2 ^ 256 - 1).
Proof. vm_compute. reflexivity. Qed.
Print Assumptions D9_refuted_float.

Theorem D9_repaired :
  permissive_u256 (JI64 (-1)) = Err /\ permissive_u256 (JF64 (-1) 0) = Err.
Proof. vm_compute. split; reflexivity. Qed.
Print Assumptions D9_repaired.

(** * D10 (C09) — [uint256] typed-data value -1 accepted as 2^256 - 1 *)

Theorem D10_refuted : pinned_enc_uint 256 (JI64 (-1)) = Ok (repeat 255 32).
Proof. vm_compute. reflexivity. Qed.
Print Assumptions D10_refuted.

Theorem D10_repaired : enc_uint permissive_u256 256 (JI64 (-1)) = Err.
Proof. vm_compute. reflexivity. Qed.
Print Assumptions D10_repaired.

(** * D11 (C09) — [int8] values 128..255 and -255..-129 accepted *)

Theorem D11_refuted :
  pinned_int_ok 8 128 = true
  /\ pinned_enc_int ethnum_permissive_i256 8 (JU64 128) = Ok (be_fixed 32 128).
Proof. vm_compute. split; reflexivity. Qed.
Print Assumptions D11_refuted.

Theorem D11_refuted_range :
  pinned_int_ok 8 255 = true /\ pinned_int_ok 8 (-129) = true /\ pinned_int_ok 8 (-255) = true.
Proof. vm_compute. repeat split. Qed.
Print Assumptions D11_refuted_range.

Theorem D11_repaired :
  enc_int ethnum_permissive_i256 8 (JU64 128) = Err
  /\ enc_int ethnum_permissive_i256 8 (JI64 (-129)) = Err
  /\ current_int_ok 8 128 = false /\ current_int_ok 8 (-129) = false
  /\ current_int_ok 8 127 = true /\ current_int_ok 8 (-128) = true.
Proof. vm_compute. repeat split. Qed.
Print Assumptions D11_repaired.

(** * D12 (C08) — members [Asset tx, Person from, Person to]: [Asset] missing from encodeType *)

Theorem D12_refuted :
  pinned_encode_type d12_types (s2l "Transfer")
  = Ok (s2l "Transfer(Asset tx,Person from,Person to)Person(string name,address wallet)").
Proof. vm_compute. reflexivity. Qed.
Print Assumptions D12_refuted.

(** ... although the original code did collect it for the ordering [from, to, tx] *)
Theorem D12_refuted_reordered :
  pinned_encode_type d12_types_reordered (s2l "Transfer")
  = Ok (s2l "Transfer(Person from,Person to,Asset tx)Asset(address token,uint256 amount)Person(string name,address wallet)").
Proof. vm_compute. reflexivity. Qed.
Print Assumptions D12_refuted_reordered.

Theorem D12_repaired :
  encode_type d12_types (s2l "Transfer")
  = Ok (s2l "Transfer(Asset tx,Person from,Person to)Asset(address token,uint256 amount)Person(string name,address wallet)").
Proof. vm_compute. reflexivity. Qed.
Print Assumptions D12_repaired.

(** * D13 (C08) — a self-referential type repeated the primary type *)

Theorem D13_refuted :
  pinned_encode_type d13_types (s2l "Foo")
  = Ok (s2l "Foo(uint256 id,Foo[] children)Foo(uint256 id,Foo[] children)").
Proof. vm_compute. reflexivity. Qed.
Print Assumptions D13_refuted.

Theorem D13_repaired :
  encode_type d13_types (s2l "Foo") = Ok (s2l "Foo(uint256 id,Foo[] children)").
Proof. vm_compute. reflexivity. Qed.
Print Assumptions D13_repaired.

(** * D14 (C18, C17) — [new --vanity-prefix 0xA]: [u8] underflow *)

Theorem D14_refuted : pinned_parse_nibble 65 = Panic.
Proof. vm_compute. reflexivity. Qed.
Print Assumptions D14_refuted.

Theorem D14_refuted_prefix : pinned_parse_prefix (s2l "0xA") = Panic.
Proof. vm_compute. reflexivity. Qed.
Print Assumptions D14_refuted_prefix.

(** the release build (wrapping arithmetic) searched for [0x8b] when asked for [0xAB] *)
Theorem D14_refuted_release :
  exists h l, pinned_parse_nibble_release 65 = Ok h /\ pinned_parse_nibble_release 66 = Ok l
    /\ (u8_shl h 4 + l) mod 256 = 0x8b.
Proof. exists 234, 235. vm_compute. repeat split. Qed.
Print Assumptions D14_refuted_release.

Theorem D14_repaired :
  parse_nibble 65 = Ok 10
  /\ parse_prefix (s2l "0xA") = Ok {| p_bytes := []; p_nibble := Some 10 |}
  /\ parse_prefix (s2l "0xAB") = Ok {| p_bytes := [0xab]; p_nibble := None |}.
Proof. vm_compute. repeat split. Qed.
Print Assumptions D14_repaired.

(** * D15 (C09, C17) — a [bytes1] value of 2^32 + 1 bytes passed the length check *)

Theorem D15_refuted : pinned_bytesn_len_ok 1 (2 ^ 32 + 1) = true.
Proof. vm_compute. reflexivity. Qed.
Print Assumptions D15_refuted.

(** ... and the [copy_from_slice] that follows a passed check panics on every source whose
    length is not [n] *)
Theorem D15_refuted_panic_site : forall src : bytes,
  length src <> 1%nat -> copy_at (repeat 0 32%nat) 0 1 src = Panic.
Proof.
  intros src H. unfold copy_at. cbn [repeat length Nat.ltb Nat.leb Nat.sub].
  destruct (Nat.eqb (length src) 1) eqn:E; [ | reflexivity ].
  apply PeanoNat.Nat.eqb_eq in E. contradiction.
Qed.
Print Assumptions D15_refuted_panic_site.

Theorem D15_repaired : current_bytesn_len_ok 1 (2 ^ 32 + 1) = false.
Proof. vm_compute. reflexivity. Qed.
Print Assumptions D15_repaired.

(** C15 (pipeline) — feeding the output of [sign transaction --signature-only] to
    [hash transaction --signature] yields Keccak-256 of the full signed transaction that
    [sign transaction] prints.
    The proof is [Proofs/TxCmdProofs.v]'s [pipeline], which uses the round trip of the signature
    text ([SigTextProofs.roundtrip], C15_roundtrip).  Keccak-256 and the signer are arbitrary
    functions; the signer's results are valid signatures (first hypothesis). *)
From Coq Require Import String.
From Coq Require Import List NArith ZArith Bool.
From HDW Require Import Lib.Outcome Lib.Bytes Lib.Hex Model.Json Model.SigText Model.Tx Spec.TxSpec.
From HDW Require Proofs.TxCmdProofs.
Import ListNotations.
Open Scope N_scope.

(** [t1]: stdout of [sign transaction --signature-only]; [full]: stdout of [sign transaction]
    ([0x] and the hex digits of the signed transaction [bs]); then [t1] parses to a signature
    [σ] and [hash transaction --signature t1] prints [0x] and the hex digits of [keccak bs]. *)
Theorem C15_pipeline :
  forall (keccak : bytes -> bytes) (sign_digest : bytes -> outcome sig) allow j t1 full,
  (forall h σ, sign_digest h = Ok σ -> valid_sig σ) ->
  sign_tx_cmd keccak sign_digest allow true j = Ok t1 ->
  sign_tx_cmd keccak sign_digest allow false j = Ok full ->
  exists σ bs,
    parse_sig t1 = Ok σ /\ full = s2l "0x" ++ hex_encode bs
    /\ hash_tx_cmd keccak j (Some σ) = Ok (s2l "0x" ++ hex_encode (keccak bs)).
Proof. exact TxCmdProofs.pipeline. Qed.
Print Assumptions C15_pipeline.

(** the two modes of [hash transaction] *)
Theorem C15_hash_unsigned : forall (keccak : bytes -> bytes) j t,
  tx_of_json j = Ok t -> wf_tx t -> tx_fits t ->
  hash_tx_cmd keccak j None = Ok (s2l "0x" ++ hex_encode (keccak (payload t))).
Proof.
  intros keccak j t Ht Hw Hf. unfold hash_tx_cmd. rewrite Ht. cbn [bind].
  rewrite (TxCmdProofs.signing_payload keccak t Hw Hf). reflexivity.
Qed.
Print Assumptions C15_hash_unsigned.

Theorem C15_hash_signed : forall (keccak : bytes -> bytes) j t σ,
  tx_of_json j = Ok t -> wf_tx t -> tx_fits t -> sig_fits σ ->
  hash_tx_cmd keccak j (Some σ) = Ok (s2l "0x" ++ hex_encode (keccak (signed_bytes t σ))).
Proof.
  intros keccak j t σ Ht Hw Hf Hs. unfold hash_tx_cmd. rewrite Ht. cbn [bind].
  rewrite (TxCmdProofs.encode_signed_bytes t σ Hw Hf Hs). reflexivity.
Qed.
Print Assumptions C15_hash_signed.

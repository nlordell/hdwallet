(** C10 — Personal-message digest is the EIP-191 prefixed Keccak-256.
    The statements, each derived in a few lines from [Lib/Decimal.v] and [Proofs/MessageProofs.v].
    Keccak-256 is a parameter of every statement (the model never looks inside it);
    [Run/DC10.v] instantiates it with [Prim.Keccak.keccak256]. *)
From Coq Require Import String.
From Coq Require Import List NArith Bool PeanoNat Lia.
From HDW Require Import Lib.Radix Lib.Bytes Lib.Decimal Model.Message Proofs.MessageProofs.
Import ListNotations.
Open Scope N_scope.

(** The digest of every byte list [m] (no well-formedness or UTF-8 condition) is Keccak-256 of
    0x19, "Ethereum Signed Message:", "\n", the decimal length of [m], then [m]. *)
Theorem C10_digest : forall (keccak : bytes -> bytes) (m : bytes),
  digest keccak m
  = keccak ([25] ++ s2l "Ethereum Signed Message:" ++ [10] ++ decimal (N.of_nat (length m)) ++ m).
Proof. reflexivity. Qed.
Print Assumptions C10_digest.

(** The constant part, byte by byte; with the leading 0x19 it is 26 bytes long. *)
Theorem C10_prefix_bytes :
  s2l "Ethereum Signed Message:" ++ [10]
  = [69; 116; 104; 101; 114; 101; 117; 109; 32; 83; 105; 103; 110; 101; 100; 32;
     77; 101; 115; 115; 97; 103; 101; 58; 10]
  /\ length ([25] ++ s2l "Ethereum Signed Message:" ++ [10]) = 26%nat.
Proof. split; reflexivity. Qed.
Print Assumptions C10_prefix_bytes.

(** The length field: ASCII digits only, no leading zero, "0" for the empty message, and it
    reads back as the number (as a digit string and through Rust's integer parser). *)
Theorem C10_decimal_canonical : forall n,
  all_digits (decimal n)
  /\ (n <> 0 -> exists c r, decimal n = c :: r /\ c <> 48)
  /\ (n = 0 -> decimal n = [48])
  /\ of_digits 10 (map (fun c => c - 48) (decimal n)) = n
  /\ (forall max, n <= max -> parse_uint max (decimal n) = Some n).
Proof.
  intros n. split; [apply decimal_digits|]. split; [apply decimal_canonical|]. split; [intros ->; reflexivity|].
  split; [apply decimal_value|intros max; apply parse_decimal].
Qed.
Print Assumptions C10_decimal_canonical.

(** A length with exactly k+1 decimal digits is printed with k+1 characters, for every k. *)
Theorem C10_decimal_length : forall n k,
  10 ^ N.of_nat k <= n < 10 ^ N.of_nat (S k) -> length (decimal n) = S k.
Proof. exact decimal_length. Qed.
Print Assumptions C10_decimal_length.

(** ... spelled out for 1 to 7 digits. *)
Theorem C10_decimal_length_table : forall n,
  (n < 10 -> length (decimal n) = 1%nat)
  /\ (10 <= n < 100 -> length (decimal n) = 2%nat)
  /\ (100 <= n < 1000 -> length (decimal n) = 3%nat)
  /\ (1000 <= n < 10000 -> length (decimal n) = 4%nat)
  /\ (10000 <= n < 100000 -> length (decimal n) = 5%nat)
  /\ (100000 <= n < 1000000 -> length (decimal n) = 6%nat)
  /\ (1000000 <= n < 10000000 -> length (decimal n) = 7%nat).
Proof.
  intros n. repeat split; intros H; try (apply decimal_length; exact H).
  destruct (N.eq_dec n 0) as [->|Hn]; [reflexivity|]. apply decimal_length. change (1 <= n < 10). lia.
Qed.
Print Assumptions C10_decimal_length_table.

(** Total length of the hashed buffer. *)
Theorem C10_preimage_length : forall m,
  length (preimage m) = (26 + length (decimal (N.of_nat (length m))) + length m)%nat.
Proof. intros m. rewrite preimage_split, !app_length. reflexivity. Qed.
Print Assumptions C10_preimage_length.

(** The framing is unambiguous: different messages are hashed from different buffers. *)
Theorem C10_preimage_injective : forall m1 m2, preimage m1 = preimage m2 -> m1 = m2.
Proof. exact preimage_injective. Qed.
Print Assumptions C10_preimage_injective.

(** Hence two different messages with the same digest exhibit a Keccak collision. *)
Theorem C10_digest_collision : forall (keccak : bytes -> bytes) m1 m2,
  digest keccak m1 = digest keccak m2 ->
  m1 = m2 \/ (preimage m1 <> preimage m2 /\ keccak (preimage m1) = keccak (preimage m2)).
Proof.
  intros keccak m1 m2 H. destruct (list_eq_dec N.eq_dec (preimage m1) (preimage m2)) as [E|E].
  - left. apply preimage_injective, E.
  - right. split; [exact E|exact H].
Qed.
Print Assumptions C10_digest_collision.

(** Non-vacuity: the crate's own test vector, the empty message, and a non-UTF-8 message. *)
Example C10_example_hello : forall keccak,
  digest keccak (s2l "hello world!") = keccak ([25] ++ s2l "Ethereum Signed Message:" ++ [10] ++ s2l "12hello world!").
Proof. reflexivity. Qed.
Example C10_example_empty : forall keccak,
  digest keccak [] = keccak ([25] ++ s2l "Ethereum Signed Message:" ++ [10] ++ s2l "0").
Proof. reflexivity. Qed.
Example C10_example_binary : forall keccak,
  digest keccak [255; 0; 128] = keccak ([25] ++ s2l "Ethereum Signed Message:" ++ [10] ++ s2l "3" ++ [255; 0; 128]).
Proof. reflexivity. Qed.

(** C13 — Transaction JSON numbers mean exactly the integer written or are rejected; byte
    fields require 0x-prefixed even-length hex and addresses exactly 20 bytes.
    Field-level deserialisers ([Model/Num.v]).  Statements only; every proof is a lemma of
    [Proofs/NumProofs.v] or follows from one in a line or two. *)
From Coq Require Import String.
From Coq Require Import List NArith ZArith Bool PeanoNat.
From HDW Require Import Lib.Outcome Lib.Radix Lib.Bytes Lib.Hex Lib.Decimal Model.Json Model.Num
  Proofs.NumProofs.
Import ListNotations.
Open Scope N_scope.

(** ** Accepted => the exact integer written, below 2^256 (no wrap, truncation, rounding, default).
    [num_token_ok]: serde_json's invariant on its own tokens (a [u64] token is below 2^64, an
    [i64] token is negative). *)
Theorem C13_exact : forall j v,
  num_token_ok j -> permissive_u256 j = Ok v -> denotes_int false j (Z.of_N v) /\ v < 2 ^ 256.
Proof. exact exact. Qed.
Print Assumptions C13_exact.

(** For strings the characterisation is an equivalence. *)
Theorem C13_string_iff : forall s v,
  permissive_u256 (JStr s) = Ok v <-> text_denotes false s (Z.of_N v) /\ v < 2 ^ 256.
Proof. exact string_iff. Qed.
Print Assumptions C13_string_iff.

(** ethnum's parser itself, signed or not: a text of the shape [[+|-]? [0b|0o|0x]? digits]
    is accepted exactly when its value fits, with that value; nothing else is accepted. *)
Theorem C13_from_str_prefixed : forall signed s v,
  from_str_prefixed signed s = Some v <-> text_denotes signed s v /\ in_range signed 256 v = true.
Proof. exact from_str_prefixed_iff. Qed.
Print Assumptions C13_from_str_prefixed.

(** ** Every spelling of an integer below 2^256 is accepted with that value *)

Theorem C13_complete_decimal : forall v, v < 2 ^ 256 -> permissive_u256 (JStr (decimal v)) = Ok v.
Proof. intros v Hv. apply string_iff. split; [apply decimal_denotes|exact Hv]. Qed.
Print Assumptions C13_complete_decimal.

(** minimal digits, lower case ([upper = false]) or upper case ([upper = true]); "0x0" for 0 *)
Theorem C13_complete_hex : forall upper v,
  v < 2 ^ 256 -> permissive_u256 (JStr (s2l "0x" ++ hex_min upper v)) = Ok v.
Proof. intros upper v Hv. apply string_iff. split; [apply hex_min_denotes|exact Hv]. Qed.
Print Assumptions C13_complete_hex.

(** 64 digits with leading zeros, either case *)
Theorem C13_complete_hex_padded : forall v,
  v < 2 ^ 256 ->
  permissive_u256 (JStr (s2l "0x" ++ hex_encode (be_fixed 32 v))) = Ok v
  /\ permissive_u256 (JStr (s2l "0x" ++ map to_upper (hex_encode (be_fixed 32 v)))) = Ok v.
Proof.
  intros v Hv. destruct (hex_fixed_denotes false v Hv) as [Hl Hu].
  split; apply string_iff; split; assumption.
Qed.
Print Assumptions C13_complete_hex_padded.

(** any non-empty hexadecimal digit string (mixed case, any number of leading zeros) *)
Theorem C13_complete_hex_digits : forall ds dv,
  ds <> [] -> Forall2 (digit_char 16) ds dv -> of_digits 16 dv < 2 ^ 256 ->
  permissive_u256 (JStr (s2l "0x" ++ ds)) = Ok (of_digits 16 dv).
Proof.
  intros ds dv Hne Hch Hv. apply string_iff. split; [|exact Hv].
  apply (unsigned_denotes false _ 16 ds dv prefix_radix_hex); assumption.
Qed.
Print Assumptions C13_complete_hex_digits.

(** any text that denotes [v] ([+] sign, [0b]/[0o] radix, leading zeros, ...) *)
Theorem C13_complete_string : forall s v,
  text_denotes false s (Z.of_N v) -> v < 2 ^ 256 -> permissive_u256 (JStr s) = Ok v.
Proof. intros s v H Hv. apply string_iff. split; assumption. Qed.
Print Assumptions C13_complete_string.

Theorem C13_complete_u64 : forall n, n < 2 ^ 64 -> permissive_u256 (JU64 n) = Ok n.
Proof. reflexivity. Qed.
Print Assumptions C13_complete_u64.

(** a double whose exact value [m * 2^e] is the integer [v] below 2^53 *)
Theorem C13_complete_f64 : forall m e v,
  denotes_int false (JF64 m e) (Z.of_N v) -> v < 2 ^ 53 -> permissive_u256 (JF64 m e) = Ok v.
Proof. intros m e v H Hv. apply f64_iff. split; assumption. Qed.
Print Assumptions C13_complete_f64.

(** all four spellings of one integer give the same value (hence the same encoding) *)
Theorem C13_same_integer : forall v,
  v < 2 ^ 256 ->
  permissive_u256 (JStr (decimal v)) = Ok v
  /\ permissive_u256 (JStr (s2l "0x" ++ hex_min false v)) = Ok v
  /\ (v < 2 ^ 64 -> permissive_u256 (JU64 v) = Ok v)
  /\ (forall m e, v < 2 ^ 53 -> denotes_int false (JF64 m e) (Z.of_N v) ->
        permissive_u256 (JF64 m e) = Ok v).
Proof.
  intros v Hv. split; [apply C13_complete_decimal; exact Hv|].
  split; [apply C13_complete_hex; exact Hv|].
  split; [apply C13_complete_u64|]. intros m e H53 Hden. apply C13_complete_f64; assumption.
Qed.
Print Assumptions C13_same_integer.

(** ** Rejections: an ordinary error, never a wrapped / truncated / rounded / default value *)

Theorem C13_reject_negative_int : forall z, (z < 0)%Z -> permissive_u256 (JI64 z) = Err.
Proof. intros z H. apply reject_negative. apply Z.ltb_lt. exact H. Qed.
Print Assumptions C13_reject_negative_int.

Theorem C13_reject_negative_float : forall m e, (m < 0)%Z -> permissive_u256 (JF64 m e) = Err.
Proof. intros m e H. apply reject_negative. apply Z.ltb_lt. exact H. Qed.
Print Assumptions C13_reject_negative_float.

Theorem C13_reject_negative_string : forall t, permissive_u256 (JStr (s2l "-" ++ t)) = Err.
Proof.
  intros t. apply (reject_bad_char [] 45 t); [|discriminate].
  intros H. destruct (alnum_facts 45 H) as (_ & _ & H45). exact (H45 eq_refl).
Qed.
Print Assumptions C13_reject_negative_string.

(** a double that is not an integer *)
Theorem C13_reject_fraction : forall m e,
  (forall i, ~ denotes_int false (JF64 m e) i) -> permissive_u256 (JF64 m e) = Err.
Proof.
  intros m e H. apply reject_unless. intros v E. apply f64_iff in E as [Hd _]. exact (H _ Hd).
Qed.
Print Assumptions C13_reject_fraction.

(** an integral double at or above 2^53 (beyond exactness) *)
Theorem C13_reject_big_float : forall m e i,
  denotes_int false (JF64 m e) i -> (2 ^ 53 <= i)%Z -> permissive_u256 (JF64 m e) = Err.
Proof. exact reject_big_float. Qed.
Print Assumptions C13_reject_big_float.

Theorem C13_reject_too_big : forall s v,
  text_denotes false s v -> (2 ^ 256 <= v)%Z -> permissive_u256 (JStr s) = Err.
Proof. exact reject_too_big. Qed.
Print Assumptions C13_reject_too_big.

Theorem C13_reject_too_big_decimal : forall v,
  2 ^ 256 <= v -> permissive_u256 (JStr (decimal v)) = Err.
Proof. intros v. apply reject_too_big_N, decimal_denotes. Qed.
Print Assumptions C13_reject_too_big_decimal.

Theorem C13_reject_too_big_hex : forall upper v,
  2 ^ 256 <= v -> permissive_u256 (JStr (s2l "0x" ++ hex_min upper v)) = Err.
Proof. intros upper v. apply reject_too_big_N, hex_min_denotes. Qed.
Print Assumptions C13_reject_too_big_hex.

Theorem C13_reject_too_big_hex_digits : forall ds dv,
  ds <> [] -> Forall2 (digit_char 16) ds dv -> 2 ^ 256 <= of_digits 16 dv ->
  permissive_u256 (JStr (s2l "0x" ++ ds)) = Err.
Proof.
  intros ds dv Hne Hch.
  apply reject_too_big_N, (unsigned_denotes false _ 16 ds dv prefix_radix_hex); assumption.
Qed.
Print Assumptions C13_reject_too_big_hex_digits.

Theorem C13_reject_empty :
  permissive_u256 (JStr []) = Err /\ permissive_u256 (JStr (s2l "0x")) = Err.
Proof. split; vm_compute; reflexivity. Qed.
Print Assumptions C13_reject_empty.

(** a string that is not [+? [0b|0o|0x]? digit+] at all *)
Theorem C13_reject_not_number : forall s,
  (forall v, ~ text_denotes false s v) -> permissive_u256 (JStr s) = Err.
Proof. exact reject_not_number. Qed.
Print Assumptions C13_reject_not_number.

(** any character outside [0-9a-zA-Z], anywhere (except one leading [+]): white space, [_],
    [.], [-], non-ASCII ... *)
Theorem C13_reject_bad_char : forall a c b,
  ~ alnum c -> (a = [] -> c <> 43) -> permissive_u256 (JStr (a ++ c :: b)) = Err.
Proof. exact reject_bad_char. Qed.
Print Assumptions C13_reject_bad_char.

(** a character that is not a digit of the radix selected by the prefix *)
Theorem C13_reject_bad_digit : forall sign sg pfx radix a c b,
  sign_of false sign sg -> prefix_radix pfx radix -> pfx <> [] ->
  (forall d, ~ digit_char radix c d) ->
  permissive_u256 (JStr (sign ++ pfx ++ a ++ c :: b)) = Err.
Proof.
  intros sign sg pfx radix a c b Hsign Hpr Hne Hc.
  apply (reject_bad_digit_gen sign sg pfx radix a c b Hsign Hpr);
    [contradiction|contradiction|exact Hc].
Qed.
Print Assumptions C13_reject_bad_digit.

(** ... and without a radix prefix: a character that is not a decimal digit *)
Theorem C13_reject_bad_decimal_digit : forall sign sg a c b,
  sign_of false sign sg ->
  (forall r, a ++ c :: b <> 43 :: r) -> no_radix_prefix (a ++ c :: b) ->
  (forall d, ~ digit_char 10 c d) ->
  permissive_u256 (JStr (sign ++ a ++ c :: b)) = Err.
Proof.
  intros sign sg a c b Hsign Hplus Hnop Hc.
  apply (reject_bad_digit_gen sign sg [] 10 a c b Hsign prefix_radix_dec); auto.
Qed.
Print Assumptions C13_reject_bad_decimal_digit.

Theorem C13_reject_kind :
  permissive_u256 JNull = Err /\ (forall b, permissive_u256 (JBool b) = Err)
  /\ (forall l, permissive_u256 (JArr l) = Err) /\ (forall kvs, permissive_u256 (JObj kvs) = Err).
Proof. repeat split. Qed.
Print Assumptions C13_reject_kind.

(** ** Byte fields *)

Theorem C13_bytes : forall j b,
  bytes_field j = Ok b <-> exists s, j = JStr (s2l "0x" ++ s) /\ hex_decode (utf8 s) = Some b.
Proof. exact bytes_iff. Qed.
Print Assumptions C13_bytes.

(** accepted => the digits after [0x] are, up to case, the two hex digits of each byte *)
Theorem C13_bytes_sound : forall j b,
  bytes_field j = Ok b ->
  bytes_ok b /\ exists s, j = JStr (s2l "0x" ++ s) /\ map to_lower s = hex_encode b
                          /\ length s = (2 * length b)%nat.
Proof. exact bytes_sound. Qed.
Print Assumptions C13_bytes_sound.

Theorem C13_bytes_complete : forall b s,
  bytes_ok b -> map to_lower s = hex_encode b -> bytes_field (JStr (s2l "0x" ++ s)) = Ok b.
Proof. exact bytes_complete. Qed.
Print Assumptions C13_bytes_complete.

Theorem C13_bytes_reject_no_prefix : forall s,
  strip_prefix (s2l "0x") s = None -> bytes_field (JStr s) = Err.
Proof. intros s H. cbn [bytes_field]. rewrite H. reflexivity. Qed.
Print Assumptions C13_bytes_reject_no_prefix.

Theorem C13_bytes_reject_odd : forall s,
  Nat.odd (length (utf8 s)) = true -> bytes_field (JStr (s2l "0x" ++ s)) = Err.
Proof.
  intros s H. cbn [bytes_field]. rewrite strip_prefix_app, hex_decode_odd by exact H. reflexivity.
Qed.
Print Assumptions C13_bytes_reject_odd.

Theorem C13_bytes_reject_nonhex : forall s,
  forallb is_hex (utf8 s) = false -> bytes_field (JStr (s2l "0x" ++ s)) = Err.
Proof.
  intros s H. cbn [bytes_field]. rewrite strip_prefix_app, hex_decode_bad_char by exact H. reflexivity.
Qed.
Print Assumptions C13_bytes_reject_nonhex.

Theorem C13_bytes_reject_kind : forall j, (forall s, j <> JStr s) -> bytes_field j = Err.
Proof. intros j H. destruct j; try reflexivity. destruct (H s eq_refl). Qed.
Print Assumptions C13_bytes_reject_kind.

(** fixed-size arrays (storage keys: [k = 32]) are byte fields of exactly [k] bytes *)
Theorem C13_bytearray_len : forall k j b,
  bytearray_field k j = Ok b -> length b = k /\ bytes_field j = Ok b.
Proof. exact bytearray_sound. Qed.
Print Assumptions C13_bytearray_len.

Theorem C13_bytearray_complete : forall k j b,
  bytes_field j = Ok b -> length b = k -> bytearray_field k j = Ok b.
Proof.
  intros k j b H Hk. rewrite bytearray_eq, H. cbn [bind]. rewrite Hk, Nat.eqb_refl. reflexivity.
Qed.
Print Assumptions C13_bytearray_complete.

Theorem C13_bytearray_reject_len : forall k j b,
  bytes_field j = Ok b -> length b <> k -> bytearray_field k j = Err.
Proof.
  intros k j b H Hk. rewrite bytearray_eq, H. cbn [bind]. apply Nat.eqb_neq in Hk. rewrite Hk.
  reflexivity.
Qed.
Print Assumptions C13_bytearray_reject_len.

(** addresses: exactly 20 bytes = 40 hex digits of either case after [0x] (ethaddr also
    tolerates a doubled prefix [0x0x]) *)
Theorem C13_address : forall j b,
  address_field j = Ok b ->
  length b = 20%nat /\ bytes_ok b /\
  exists s, (j = JStr (s2l "0x" ++ s) \/ j = JStr (s2l "0x0x" ++ s))
            /\ length s = 40%nat /\ map to_lower s = hex_encode b.
Proof. exact address_sound. Qed.
Print Assumptions C13_address.

Theorem C13_address_complete : forall b s,
  bytes_ok b -> length b = 20%nat -> map to_lower s = hex_encode b ->
  address_field (JStr (s2l "0x" ++ s)) = Ok b /\ address_field (JStr (s2l "0x0x" ++ s)) = Ok b.
Proof. exact address_complete. Qed.
Print Assumptions C13_address_complete.

Theorem C13_address_reject_no_prefix : forall s,
  strip_prefix (s2l "0x") s = None -> address_field (JStr s) = Err.
Proof. intros s H. cbn [address_field]. rewrite H. reflexivity. Qed.
Print Assumptions C13_address_reject_no_prefix.

Theorem C13_address_reject_kind : forall j, (forall s, j <> JStr s) -> address_field j = Err.
Proof. intros j H. destruct j; try reflexivity. destruct (H s eq_refl). Qed.
Print Assumptions C13_address_reject_kind.

Theorem C13_opt_address : forall j b,
  opt_address_field j = Ok (Some b) -> exists j', j = Some j' /\ address_field j' = Ok b.
Proof. exact opt_address_sound. Qed.
Print Assumptions C13_opt_address.

(** ** Optional numbers, chain id *)

Theorem C13_numopt_none : numopt None = Ok None /\ numopt (Some JNull) = Ok None.
Proof. split; reflexivity. Qed.
Print Assumptions C13_numopt_none.

Theorem C13_numopt_some : forall j c,
  numopt j = Ok (Some c) -> exists j', j = Some j' /\ permissive_u256 j' = Ok c.
Proof. exact numopt_some. Qed.
Print Assumptions C13_numopt_some.

(** an accepted chain id is an accepted number for which [35 + 2 * chain_id + 1] fits 256 bits *)
Theorem C13_chainid_bound : forall j c,
  chainid_field j = Ok (Some c) -> numopt j = Ok (Some c) /\ 2 * c + 36 < 2 ^ 256.
Proof. exact chainid_sound. Qed.
Print Assumptions C13_chainid_bound.

Theorem C13_chainid_complete : forall j c,
  numopt j = Ok (Some c) -> 2 * c + 36 < 2 ^ 256 -> chainid_field j = Ok (Some c).
Proof. intros j c Hn Hc. apply chainid_iff. split; assumption. Qed.
Print Assumptions C13_chainid_complete.

Theorem C13_chainid_reject : forall j c,
  numopt j = Ok (Some c) -> 2 ^ 256 <= 2 * c + 36 -> chainid_field j = Err.
Proof. exact chainid_reject. Qed.
Print Assumptions C13_chainid_reject.

(** ** No panic anywhere *)

Theorem C13_total : forall j oj k,
  graceful (permissive_u256 j) /\ graceful (ethnum_permissive_i256 j) /\ graceful (numopt oj)
  /\ graceful (chainid_field oj) /\ graceful (bytes_field j) /\ graceful (bytearray_field k j)
  /\ graceful (address_field j) /\ graceful (opt_address_field oj).
Proof. exact total. Qed.
Print Assumptions C13_total.

(** ** Side results *)

(** What the hdwallet wrapper protects against: ethnum alone wraps a negative JSON integer. *)
Theorem C13_ethnum_wraps_negative : forall z,
  (- 2 ^ 63 <= z < 0)%Z -> ethnum_permissive_u256 (JI64 z) = Ok (Z.to_N (2 ^ 256 + z)).
Proof. exact ethnum_wraps_negative. Qed.
Print Assumptions C13_ethnum_wraps_negative.

(** the signed target ([I256]) is exact too *)
Theorem C13_i256_exact : forall j v,
  num_token_ok j -> ethnum_permissive_i256 j = Ok v ->
  denotes_int true j v /\ (- 2 ^ 255 <= v < 2 ^ 255)%Z.
Proof. exact i256_exact. Qed.
Print Assumptions C13_i256_exact.

(** ** Examples (non-vacuity) *)

Example C13_ex_accept :
  permissive_str "0xff" = Ok 255 /\ permissive_str "0xFF" = Ok 255 /\ permissive_str "255" = Ok 255 /\ permissive_str "0b101" = Ok 5
  /\ permissive_str "0o17" = Ok 15 /\ permissive_str "+5" = Ok 5 /\ permissive_str "+0x10" = Ok 16 /\ permissive_str "00012" = Ok 12
  /\ permissive_u256 (JU64 255) = Ok 255
  /\ permissive_u256 (JF64 104453125 7) = Ok 13370000000     (* 13.37e9 *)
  /\ permissive_u256 (JF64 0 0) = Ok 0                         (* 0.0 and -0.0 *)
  /\ permissive_u256 (JStr (decimal (2 ^ 256 - 1))) = Ok (2 ^ 256 - 1).
Proof. vm_compute. repeat split; reflexivity. Qed.

Example C13_ex_reject :
  permissive_str "-1" = Err /\ permissive_str " 5" = Err /\ permissive_str "1_000" = Err /\ permissive_str "0X10" = Err /\ permissive_str "" = Err /\ permissive_str "0x" = Err
  /\ permissive_str "0x+1" = Err /\ permissive_str "+" = Err /\ permissive_str "0b2" = Err /\ permissive_str "1e3" = Err /\ permissive_str "1.0" = Err
  /\ permissive_u256 (JStr (decimal (2 ^ 256))) = Err
  /\ permissive_u256 (JI64 (-1)) = Err
  /\ permissive_u256 (JF64 (-1) 0) = Err                       (* -1.0 *)
  /\ permissive_u256 (JF64 3 (-1)) = Err                       (* 1.5 *)
  /\ permissive_u256 (JF64 1 53) = Err                         (* 2^53 as a float *)
  /\ permissive_u256 (JF64 1 64) = Err                         (* the integer literal 2^64 *)
  /\ permissive_u256 JNull = Err /\ permissive_u256 (JBool true) = Err.
Proof. vm_compute. repeat split; reflexivity. Qed.

Example C13_ex_bytes :
  bytes_field (JStr (s2l "0xabCd")) = Ok [171; 205] /\ bytes_field (JStr (s2l "0x")) = Ok []
  /\ bytes_field (JStr (s2l "0xabc")) = Err /\ bytes_field (JStr (s2l "abcd")) = Err
  /\ bytes_field (JStr (s2l "0xzz")) = Err
  /\ bytearray_field 2 (JStr (s2l "0xabCd")) = Ok [171; 205]
  /\ bytearray_field 3 (JStr (s2l "0xabCd")) = Err
  /\ address_field (JStr (s2l "0xdeadbeefdeadbeefdeadbeefdeadbeefdeadbeeF"))
     = Ok [222; 173; 190; 239; 222; 173; 190; 239; 222; 173; 190; 239; 222; 173; 190; 239; 222; 173; 190; 239]
  /\ address_field (JStr (s2l "0xdeadbeefdeadbeefdeadbeefdeadbeefdeadbe")) = Err
  /\ address_field (JStr (s2l "0xdeadbeefdeadbeefdeadbeefdeadbeefdeadbeefde")) = Err
  /\ address_field (JStr (s2l "deadbeefdeadbeefdeadbeefdeadbeefdeadbeef")) = Err
  /\ chainid_field (Some (JStr (s2l "0x7fffffffffffffffffffffffffffffffffffffffffffffffffffffffffffffed")))
     = Ok (Some ((2 ^ 256 - 37) / 2))
  /\ chainid_field (Some (JStr (s2l "0x7fffffffffffffffffffffffffffffffffffffffffffffffffffffffffffffee"))) = Err
  /\ chainid_field None = Ok None.
Proof. vm_compute. repeat split; reflexivity. Qed.

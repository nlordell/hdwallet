(** C08, value half — the words and digests of [Model/Eip712Values.v] are the ones EIP-712 defines
    ([Spec/Eip712ValueSpec.v]: typed values [tval], [has_type], JSON spellings [denotes],
    [enc_data] / [hash_struct]); and the general form of C09 ([C09_reject]).
    The proofs rest on [Proofs/Eip712ValueSpecProofs.v] and [Proofs/Eip712ValueProofs.v].

    [P : prims] are the primitives (Keccak-256, type hash, leaf deserialisers);
    [den_u], [den_i], [den_bytes], [den_addr] say what a JSON value denotes as an unsigned /
    signed integer, a byte string, an address, and [prims_denote] ties them to the
    deserialisers of [P] (for the real ones this is C13 / [Model/Num.v]).
    [json_wf j]: the keys of every object in [j] are distinct (serde_json's invariant). *)
From Coq Require Import String.
From Coq Require Import List NArith ZArith Bool.
From HDW Require Import Lib.Outcome Lib.Bytes Model.Json Model.Eip712Kind Model.Domain Model.Eip712Values.
From HDW Require Import Spec.Eip712ValueSpec Proofs.Eip712ValueProofs Proofs.Eip712ValueSpecProofs.
Import ListNotations.
Open Scope N_scope.

(** Every spelling of a value of the declared type is accepted, and its word is [enc_data]:
    bool / uintN as 32-byte big-endian numbers, intN sign-extended ([z mod 2^256]), address
    left-padded, bytesN right-padded, bytes / string hashed, arrays the hash of the concatenated
    element words, structs [hashStruct]. *)
Theorem C08_value : forall P den_u den_i den_bytes den_addr tys k j tv,
  prims_sized P -> prims_denote P den_u den_i den_bytes den_addr ->
  has_type (p_type_hash P) tys k tv ->
  denotes den_u den_i den_bytes den_addr tys j k tv ->
  encode_value_p P tys k j = Ok (enc_data (p_keccak P) (p_type_hash P) tys k tv).
Proof. exact value_complete. Qed.
Print Assumptions C08_value.

(** Conversely, whatever is accepted is a spelling of a value of the declared type, and the
    word is that value's [enc_data]. *)
Theorem C08_value_sound : forall P den_u den_i den_bytes den_addr tys k j w,
  prims_sized P -> prims_ranged P -> prims_denote P den_u den_i den_bytes den_addr ->
  json_wf j -> encode_value_p P tys k j = Ok w ->
  exists tv, has_type (p_type_hash P) tys k tv /\
             denotes den_u den_i den_bytes den_addr tys j k tv /\
             w = enc_data (p_keccak P) (p_type_hash P) tys k tv.
Proof. exact value_sound. Qed.
Print Assumptions C08_value_sound.

(** accepted  iff  the JSON denotes a typed value of the declared type *)
Theorem C08_accepted_iff : forall P den_u den_i den_bytes den_addr tys k j,
  prims_sized P -> prims_ranged P -> prims_denote P den_u den_i den_bytes den_addr ->
  json_wf j ->
  ((exists w, encode_value_p P tys k j = Ok w) <->
   (exists tv, has_type (p_type_hash P) tys k tv /\ denotes den_u den_i den_bytes den_addr tys j k tv)).
Proof.
  intros P den_u den_i den_bytes den_addr tys k j S R D W. split.
  - intros [w H]. destruct (C08_value_sound _ _ _ _ _ tys k j w S R D W H) as (tv & T1 & T2 & _). eauto.
  - intros (tv & T1 & T2). eexists. exact (C08_value P den_u den_i den_bytes den_addr tys k j tv S D T1 T2).
Qed.
Print Assumptions C08_accepted_iff.

(** C09 in one statement: a value that cannot be a value of its declared type is refused with
    an ordinary error. *)
Theorem C09_reject : forall P den_u den_i den_bytes den_addr tys k j,
  prims_sized P -> prims_ranged P -> prims_total P ->
  prims_denote P den_u den_i den_bytes den_addr ->
  json_wf j ->
  (~ exists tv, has_type (p_type_hash P) tys k tv /\ denotes den_u den_i den_bytes den_addr tys j k tv) ->
  encode_value_p P tys k j = Err.
Proof.
  intros P den_u den_i den_bytes den_addr tys k j S R T D W Hno.
  apply graceful_not_ok_err; [apply encode_value_graceful; assumption|].
  intros w H. apply Hno. destruct (C08_value_sound _ _ _ _ _ tys k j w S R D W H) as (tv & T1 & T2 & _). eauto.
Qed.
Print Assumptions C09_reject.

(** The three digests of a document: digest = keccak256(0x19 0x01 ‖ domainSeparator ‖
    hashStruct(message)); the domain separator is [hash_struct] of a value of the (verified)
    type [EIP712Domain] spelled by the [domain] object, the message hash is [hash_struct] of a
    value of the primary type spelled by the [message] object. *)
Theorem C08_digest : forall P den_u den_i den_bytes den_addr j d ds mh,
  prims_sized P -> prims_ranged P -> prims_denote P den_u den_i den_bytes den_addr ->
  json_wf j -> compute_p P j = Ok (d, ds, mh) ->
  d = p_keccak P ([0x19; 0x01] ++ ds ++ mh) /\
  exists b dv mv,
    blob_of_json j = Ok b /\
    verify_domain_type (b_types b) = Ok tt /\
    has_type (p_type_hash P) (b_types b) (KStruct (s2l "EIP712Domain")) (VStruct dv) /\
    denotes den_u den_i den_bytes den_addr (b_types b) (JObj (b_domain b))
      (KStruct (s2l "EIP712Domain")) (VStruct dv) /\
    ds = hash_struct (p_keccak P) (p_type_hash P) (b_types b) (s2l "EIP712Domain") dv /\
    has_type (p_type_hash P) (b_types b) (KStruct (b_primary b)) (VStruct mv) /\
    denotes den_u den_i den_bytes den_addr (b_types b) (JObj (b_message b))
      (KStruct (b_primary b)) (VStruct mv) /\
    mh = hash_struct (p_keccak P) (p_type_hash P) (b_types b) (b_primary b) mv.
Proof.
  intros P den_u den_i den_bytes den_addr j d ds mh S R D W H.
  apply compute_ok in H as (b & Hb & Hv & Hds & Hmh & ->). split; [reflexivity|].
  destruct (blob_of_json_wf _ _ Hb W) as [Wd Wm].
  destruct (struct_sound P den_u den_i den_bytes den_addr _ _ _ _ S R D Wd Hds) as (dv & D1 & D2 & D3).
  destruct (struct_sound P den_u den_i den_bytes den_addr _ _ _ _ S R D Wm Hmh) as (mv & M1 & M2 & M3).
  exists b, dv, mv. repeat split; assumption.
Qed.
Print Assumptions C08_digest.

(** the digest equation alone *)
Theorem C08_digest_eq : forall P j d ds mh,
  prims_sized P -> compute_p P j = Ok (d, ds, mh) -> d = p_keccak P ([0x19; 0x01] ++ ds ++ mh).
Proof.
  intros P j d ds mh _ H. apply compute_ok in H as (b & _ & _ & _ & _ & ->). reflexivity.
Qed.
Print Assumptions C08_digest_eq.

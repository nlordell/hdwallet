(** C16 (companion) — the account pipeline of [Props/C16.v] at the instantiation of
    [Run/DC16.v]: [c16_key mn pw sel] = [private_key] with [Prim.Sha256.sha256],
    [Prim.Pbkdf2.pbkdf2_hmac_sha512], [Prim.Nfkd.nfkd], [Prim.Hmac.hmac_sha512],
    [Run.DC03.pubc].  Statements only. *)
From Coq Require Import String.
From Coq Require Import List NArith ZArith Bool.
From HDW Require Import Lib.Outcome Lib.Bytes Lib.Hex.
From HDW Require Import Prim.Sha256 Prim.Pbkdf2 Prim.Nfkd Prim.Hmac Prim.Keccak.
From HDW Require Import Model.Bip39 Model.Seed Model.Path Model.Bip32 Model.Account Model.Cli.
From HDW Require Import Run.DC03 Run.DC04 Run.DC16.
From HDW Require Proofs.CliProofs.
From HDW Require Props.C16.
Import ListNotations.
Open Scope N_scope.

(** The key every command uses: phrase -> seed (with the passphrase) -> path -> BIP-32 derivation,
    all with the real primitives. *)
Theorem C16k_account : forall mn pw sel k,
  c16_key mn pw sel = Ok k <->
  exists m sd p, from_phrase sha256 mn = Ok m /\ seed pbkdf2_hmac_sha512 nfkd m pw = Ok sd
                 /\ account_path sel = Ok p /\ derive hmac_sha512 pubc sd p = Ok k.
Proof.
  intros mn pw sel k.
  exact (C16.C16_private_key sha256 pbkdf2_hmac_sha512 nfkd hmac_sha512 pubc
           {| o_mnemonic := mn; o_password := pw; o_sel := sel |} k).
Qed.
Print Assumptions C16k_account.

(** Loading the account never panics and needs no fuel: a key or an ordinary error, for every
    phrase, passphrase and selector (composition of C01_total, the seed of a parsed mnemonic
    always existing, C14_total / C14_total_for_index and C03_total). *)
Theorem C16k_total : forall mn pw sel, graceful (c16_key mn pw sel).
Proof.
  intros mn pw sel.
  exact (CliProofs.private_key_total sha256 pbkdf2_hmac_sha512 nfkd hmac_sha512 pubc
           sha256_length sha256_ok hmac_sha512_length
           {| o_mnemonic := mn; o_password := pw; o_sel := sel |}).
Qed.
Print Assumptions C16k_total.

(** [address], [export], [public-key] at the real primitives (C16_address, C16_export,
    C16_public_key instantiated; [c16_key] unfolds to that [private_key]). *)
Theorem C16k_address : forall mn pw sel t,
  cmd_address sha256 pbkdf2_hmac_sha512 nfkd hmac_sha512 pubc pubkey65 keccak256
    {| o_mnemonic := mn; o_password := pw; o_sel := sel |} = Ok t <->
  exists k a, c16_key mn pw sel = Ok k /\ address keccak256 pubkey65 k = Ok a /\ t = eip55 keccak256 a.
Proof.
  intros mn pw sel t.
  exact (C16.C16_address sha256 pbkdf2_hmac_sha512 nfkd hmac_sha512 pubc pubkey65 keccak256
           {| o_mnemonic := mn; o_password := pw; o_sel := sel |} t).
Qed.
Print Assumptions C16k_address.

Theorem C16k_export : forall mn pw sel t,
  cmd_export sha256 pbkdf2_hmac_sha512 nfkd hmac_sha512 pubc
    {| o_mnemonic := mn; o_password := pw; o_sel := sel |} = Ok t <->
  exists k, c16_key mn pw sel = Ok k /\ t = s2l "0x" ++ hex_encode (be_fixed 32 k).
Proof.
  intros mn pw sel t.
  exact (C16.C16_export sha256 pbkdf2_hmac_sha512 nfkd hmac_sha512 pubc
           {| o_mnemonic := mn; o_password := pw; o_sel := sel |} t).
Qed.
Print Assumptions C16k_export.

(** If the account cannot be loaded, no account command prints anything. *)
Theorem C16k_no_account_no_output : forall sign mn pw sel,
  (forall k, c16_key mn pw sel <> Ok k) ->
  let o := {| o_mnemonic := mn; o_password := pw; o_sel := sel |} in
  (forall t, cmd_address sha256 pbkdf2_hmac_sha512 nfkd hmac_sha512 pubc pubkey65 keccak256 o <> Ok t)
  /\ (forall t, cmd_export sha256 pbkdf2_hmac_sha512 nfkd hmac_sha512 pubc o <> Ok t)
  /\ (forall t, cmd_public_key sha256 pbkdf2_hmac_sha512 nfkd hmac_sha512 pubc pubkey65 o <> Ok t)
  /\ (forall d t, sign_and_print sha256 pbkdf2_hmac_sha512 nfkd hmac_sha512 pubc sign o d <> Ok t).
Proof.
  intros sign mn pw sel.
  exact (C16.C16_no_account_no_output sha256 pbkdf2_hmac_sha512 nfkd hmac_sha512 pubc pubkey65 keccak256 sign
           {| o_mnemonic := mn; o_password := pw; o_sel := sel |}).
Qed.
Print Assumptions C16k_no_account_no_output.

(** C18 — Vanity search returns a phrase whose account really has the prefix (the parts that are
    pure logic: prefix parser, prefix matcher, search loop and thread race).
    The statements, each derived in a few lines from [Proofs/PrefixProofs.v] and [Proofs/VanityProofs.v]. *)
From Coq Require Import String.
From Coq Require Import List NArith Bool PeanoNat Lia.
From HDW Require Import Lib.Outcome Lib.Bytes Lib.Hex Model.Prefix Model.Vanity.
From HDW Require Import Proofs.PrefixProofs Proofs.VanityProofs.
Import ListNotations.
Open Scope N_scope.

(** * The prefix parser and matcher *)

(** Every string of hex digits (either case, any length) parses: [length / 2] whole bytes and
    a trailing nibble exactly when the number of digits is odd. *)
Theorem C18_prefix_parse : forall ds, Forall is_hex_digit ds ->
  exists p, parse_prefix (s2l "0x" ++ ds) = Ok p
    /\ length (p_bytes p) = Nat.div (length ds) 2
    /\ (p_nibble p = None <-> Nat.even (length ds) = true)
    /\ bytes_ok (p_bytes p)
    /\ (forall n, p_nibble p = Some n -> n < 16).
Proof.
  intros ds H. destruct (parse_prefix_digits ds H) as (bs & nib & E & _ & Hok & Hlen & Hev & Hn).
  eexists. split; [exact E|]. cbn [p_bytes p_nibble]. auto.
Qed.
Print Assumptions C18_prefix_parse.

(** The matcher accepts an address exactly when the lower-case hex spelling of the address
    begins with the requested digits compared case-insensitively — odd or even length, either
    case, also prefixes longer than the address. *)
Theorem C18_prefix_spec : forall ds p addr,
  parse_prefix (s2l "0x" ++ ds) = Ok p -> bytes_ok addr ->
  (matches p addr = true <-> hex_prefix_matches ds addr).
Proof. exact prefix_spec. Qed.
Print Assumptions C18_prefix_spec.

(** A prefix with more digits than the address never matches. *)
Theorem C18_prefix_too_long : forall ds p addr,
  parse_prefix (s2l "0x" ++ ds) = Ok p -> bytes_ok addr ->
  (2 * length addr < length ds)%nat -> matches p addr = false.
Proof.
  intros ds p addr Hp Hok Hlen. destruct (matches p addr) eqn:Hm; [|reflexivity].
  apply (prefix_spec _ _ _ Hp Hok) in Hm. destruct Hm as [r Hr].
  apply (f_equal (@length N)) in Hr. rewrite hex_encode_length, app_length, map_length in Hr. lia.
Qed.
Print Assumptions C18_prefix_too_long.

(** Only [0x] followed by ASCII hex digits is accepted ... *)
Theorem C18_prefix_sound : forall t p,
  parse_prefix t = Ok p -> exists ds, t = s2l "0x" ++ ds /\ Forall is_hex_digit ds.
Proof. exact prefix_sound. Qed.
Print Assumptions C18_prefix_sound.

(** ... anything else (no [0x], or some character after it that is not an ASCII hex digit —
    including every non-ASCII character) is refused with an ordinary error. *)
Theorem C18_nonhex : forall t,
  (~ (exists r, t = s2l "0x" ++ r))
  \/ (exists ds, t = s2l "0x" ++ ds /\ Exists (fun c => ~ is_hex_digit c) ds) ->
  parse_prefix t = Err.
Proof.
  intros t H. apply graceful_not_ok_err; [apply prefix_total|]. intros p E.
  destruct (prefix_sound _ _ E) as (ds & -> & Hd). destruct H as [H | (ds' & Ht' & Hex)].
  - apply H. eauto.
  - apply app_inv_head in Ht' as <-.
    apply Exists_exists in Hex as (c & Hin & Hc). rewrite Forall_forall in Hd. auto.
Qed.
Print Assumptions C18_nonhex.

(** The parser never panics (no [u8] underflow/overflow, no index out of bounds, the
    [unreachable!] is unreachable) on any text. *)
Theorem C18_prefix_total : forall t, graceful (parse_prefix t).
Proof. exact prefix_total. Qed.
Print Assumptions C18_prefix_total.

(** * The search loop and the race ([candidate], [addr_of] arbitrary) *)

(** What a search returns has an address that matches, and it is the first candidate or one
    that the entropy source delivered to this worker. *)
Theorem C18_search_matches :
  forall (candidate : Type) (addr_of : candidate -> outcome bytes) p st c0 c,
  search candidate addr_of p c0 st = Ok c ->
  (exists a, addr_of c = Ok a /\ matches p a = true) /\ (c = c0 \/ In (Ok c) st).
Proof. exact search_matches. Qed.
Print Assumptions C18_search_matches.

(** For EVERY thread count, worker streams and winner (whichever worker's message is first on
    the channel) the returned phrase matches the prefix and was really generated. *)
Theorem C18_result :
  forall (candidate : Type) (addr_of : candidate -> outcome bytes) p threads workers winner first c,
  run_vanity candidate addr_of p threads workers winner first = Ok c ->
  (exists a, addr_of c = Ok a /\ matches p a = true)
  /\ (first = Ok c \/ exists st, In st workers /\ In (Ok c) st).
Proof. exact result. Qed.
Print Assumptions C18_result.

(** Combined with [C18_prefix_spec]: the address of the returned phrase begins with exactly
    the requested digits. *)
Theorem C18_result_spec :
  forall (candidate : Type) (addr_of : candidate -> outcome bytes) ds p threads workers winner first c,
  parse_prefix (s2l "0x" ++ ds) = Ok p ->
  run_vanity candidate addr_of p threads workers winner first = Ok c ->
  exists a, addr_of c = Ok a /\ (bytes_ok a -> hex_prefix_matches ds a).
Proof.
  intros candidate addr_of ds p threads workers winner first c Hp H.
  destruct (result _ _ _ _ _ _ _ _ H) as [(a & Ha & Hm) _].
  exists a. split; [exact Ha|]. intros Hok. apply (prefix_spec _ _ _ Hp Hok), Hm.
Qed.
Print Assumptions C18_result_spec.

(** A run that ends in an error does not also return a candidate: [Err] and [Ok] exclude each
    other (true of any function). *)
Theorem C18_error_never_phrase :
  forall (candidate : Type) (addr_of : candidate -> outcome bytes) p threads workers winner first,
  run_vanity candidate addr_of p threads workers winner first = Err ->
  forall c, run_vanity candidate addr_of p threads workers winner first <> Ok c.
Proof. intros candidate addr_of p threads workers winner first H c. rewrite H. discriminate. Qed.
Print Assumptions C18_error_never_phrase.

(** The error (entropy failure, derivation error) of the worker whose message comes first —
    or of the inline search — is the outcome of the run. *)
Theorem C18_worker_error :
  forall (candidate : Type) (addr_of : candidate -> outcome bytes) p threads workers winner c0,
  search candidate addr_of p c0 (nth (if threads =? 0 then 0%nat else winner) workers []) = Err ->
  (threads = 0 \/ N.of_nat winner < threads) ->
  run_vanity candidate addr_of p threads workers winner (Ok c0) = Err.
Proof. exact worker_error_is_error. Qed.
Print Assumptions C18_worker_error.

(** An [Err] of the run comes from the first entropy request or from that worker's search. *)
Theorem C18_error_origin :
  forall (candidate : Type) (addr_of : candidate -> outcome bytes) p threads workers winner first,
  run_vanity candidate addr_of p threads workers winner first = Err ->
  first = Err
  \/ exists c0, first = Ok c0
       /\ search candidate addr_of p c0 (nth (if threads =? 0 then 0%nat else winner) workers []) = Err.
Proof.
  intros candidate addr_of p threads workers winner first H.
  destruct (run_vanity_inv _ _ _ _ _ _ _ _ H graceful_err) as [[E _]|E]; [left|right]; exact E.
Qed.
Print Assumptions C18_error_origin.

(** Entropy failure at the first request (main thread) and at any later request of a search
    whose earlier candidates were all rejected: an error (vanity part of C12). *)
Theorem C18_first_entropy_failure :
  forall (candidate : Type) (addr_of : candidate -> outcome bytes) p threads workers winner,
  run_vanity candidate addr_of p threads workers winner Err = Err.
Proof. reflexivity. Qed.
Print Assumptions C18_first_entropy_failure.

Theorem C18_later_entropy_failure :
  forall (candidate : Type) (addr_of : candidate -> outcome bytes) p c0 cs rest,
  rejected candidate addr_of p c0 -> Forall (rejected candidate addr_of p) cs ->
  search candidate addr_of p c0 (map Ok cs ++ Err :: rest) = Err.
Proof. intros candidate addr_of p c0 cs rest H0 Hcs. exact (search_skip _ _ p c0 cs Err rest H0 Hcs). Qed.
Print Assumptions C18_later_entropy_failure.

(** A first candidate that does not match is never the phrase returned. *)
Theorem C18_first_nonmatching_not_returned :
  forall (candidate : Type) (addr_of : candidate -> outcome bytes) p c0 st c a0,
  search candidate addr_of p c0 st = Ok c -> addr_of c0 = Ok a0 -> matches p a0 = false ->
  c <> c0 /\ In (Ok c) st.
Proof.
  intros candidate addr_of p c0 st c a0 H Ha0 Hm0.
  destruct (search_matches _ _ _ _ _ _ H) as [(a & Ha & Hm) [->|Hin]]; [congruence|].
  split; [intros ->; congruence|exact Hin].
Qed.
Print Assumptions C18_first_nonmatching_not_returned.

(** The search returns the FIRST matching candidate of its stream (used by the exact-phrase
    comparison under scripted entropy). *)
Theorem C18_search_first_match :
  forall (candidate : Type) (addr_of : candidate -> outcome bytes) p c0 cs c1 a1 rest,
  rejected candidate addr_of p c0 -> Forall (rejected candidate addr_of p) cs ->
  addr_of c1 = Ok a1 -> matches p a1 = true ->
  search candidate addr_of p c0 (map Ok cs ++ Ok c1 :: rest) = Ok c1.
Proof.
  intros candidate addr_of p c0 cs c1 a1 rest H0 Hcs Ha1 Hm1.
  rewrite search_skip by assumption. exact (search_hit _ _ p c1 rest a1 Ha1 Hm1).
Qed.
Print Assumptions C18_search_first_match.

(** * Examples (non-vacuity) *)

Example C18_ex_upper_nibble : parse_prefix (s2l "0xA") = Ok {| p_bytes := []; p_nibble := Some 10 |}.
Proof. vm_compute. reflexivity. Qed.

Example C18_ex_odd : parse_prefix (s2l "0xab1") = Ok {| p_bytes := [0xab]; p_nibble := Some 1 |}.
Proof. vm_compute. reflexivity. Qed.

Example C18_ex_upper_matches :
  omap (fun p => matches p [0xab; 0xcd; 0xef]) (parse_prefix (s2l "0xAB")) = Ok true
  /\ omap (fun p => matches p [0xab; 0xcd; 0xef]) (parse_prefix (s2l "0xaBc")) = Ok true
  /\ omap (fun p => matches p [0xab; 0xcd; 0xef]) (parse_prefix (s2l "0xABd")) = Ok false
  /\ omap (fun p => matches p [0xab]) (parse_prefix (s2l "0xABc")) = Ok false.
Proof. vm_compute. repeat split; reflexivity. Qed.

Example C18_ex_nonhex : parse_prefix (s2l "0xg") = Err /\ parse_prefix (s2l "1a") = Err
  /\ parse_prefix (s2l "0x1" ++ [0xe9]) = Err /\ parse_prefix (s2l "0X1a") = Err.
Proof. vm_compute. repeat split; reflexivity. Qed.

Example C18_ex_empty : forall addr,
  exists p, parse_prefix (s2l "0x") = Ok p /\ matches p addr = true.
Proof. intros addr. eexists. split; reflexivity. Qed.

(** A two-worker race on a toy candidate type (a candidate is its own address): worker 0 finds
    [0xab..] as its third candidate, worker 1 hits an entropy failure first. *)
Example C18_ex_race :
  let addr_of := fun c : bytes => Ok c in
  let p := {| p_bytes := [0xab]; p_nibble := None |} in
  let workers := [[Ok [1; 2]; Ok [0xab; 7]; Ok [0xab; 8]]; [Ok [3; 4]; Err; Ok [0xab; 9]]] in
  run_vanity bytes addr_of p 2 workers 0 (Ok [0; 0]) = Ok [0xab; 7]
  /\ run_vanity bytes addr_of p 2 workers 1 (Ok [0; 0]) = Err
  /\ run_vanity bytes addr_of p 0 workers 1 (Ok [0; 0]) = Ok [0xab; 7]
  /\ run_vanity bytes addr_of p 2 workers 0 (Ok [0xab; 0]) = Ok [0xab; 0].
Proof. vm_compute. repeat split; reflexivity. Qed.

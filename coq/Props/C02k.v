(** C02 (companion) — the theorems of [Props/C02.v] at the executable primitives that
    [Run/DC02.v] evaluates: [Prim.Sha256.sha256], [Prim.Pbkdf2.pbkdf2_hmac_sha512],
    [Prim.Nfkd.nfkd].  No hypothesis about a primitive is left ([sha256_length], [sha256_ok],
    [pbkdf2_length], [nfkd_ascii_prefix], [nfkd_ascii] discharge them).
    Statements; every proof is the general theorem, a lemma of [Proofs/ConcreteProofs.v], or a
    line or two from them.  ([Print Assumptions] lists the kernel's primitive 63-bit integer
    operations because the hash functions compute with [Uint63].) *)
From Coq Require Import String.
From Coq Require Import List NArith Bool.
From HDW Require Import Lib.Outcome Lib.Bytes Model.Bip39 Spec.Bip39Spec Model.Seed Proofs.ConcreteProofs.
From HDW Require Import Prim.Sha256 Prim.Nfkd Prim.Pbkdf2 Proofs.NfkdProofs.
From HDW Require Props.C02.
Import ListNotations.

(** seed = PBKDF2-HMAC-SHA512(password = the canonical phrase, salt = NFKD("mnemonic" ++ passphrase), 2048 rounds, 64 bytes) *)
Theorem C02k_seed_def : forall ent pw, bytes_ok ent -> valid_ent_len (length ent) ->
  seed pbkdf2_hmac_sha512 nfkd (mk_mnemonic sha256 ent) pw
  = Ok (pbkdf2_hmac_sha512 (utf8 (bip39_phrase sha256 ent)) (utf8 (nfkd (s2l "mnemonic" ++ pw))) 2048%N 64%nat).
Proof. exact (C02.C02_seed_def sha256 pbkdf2_hmac_sha512 nfkd sha256_length sha256_ok). Qed.
Print Assumptions C02k_seed_def.

(** for a parsed phrase the password is the words joined by single spaces, not the text typed *)
Theorem C02k_seed_of_phrase : forall t m pw, from_phrase sha256 t = Ok m ->
  seed pbkdf2_hmac_sha512 nfkd m pw
  = Ok (pbkdf2_hmac_sha512 (utf8 (join [32%N] (split_ws t))) (utf8 (nfkd (s2l "mnemonic" ++ pw))) 2048%N 64%nat).
Proof. exact (C02.C02_seed_of_phrase sha256 pbkdf2_hmac_sha512 nfkd sha256_length sha256_ok). Qed.
Print Assumptions C02k_seed_of_phrase.

Theorem C02k_layout_irrelevant : forall t1 t2 m1 m2 pw, split_ws t1 = split_ws t2 ->
  from_phrase sha256 t1 = Ok m1 -> from_phrase sha256 t2 = Ok m2 ->
  seed pbkdf2_hmac_sha512 nfkd m1 pw = seed pbkdf2_hmac_sha512 nfkd m2 pw.
Proof. exact (C02.C02_layout_irrelevant sha256 pbkdf2_hmac_sha512 nfkd sha256_length sha256_ok). Qed.
Print Assumptions C02k_layout_irrelevant.

(** the salt is "mnemonic" followed by the normalised passphrase *)
Theorem C02k_salt : forall m pw,
  seed pbkdf2_hmac_sha512 nfkd m pw = bind (to_phrase m) (fun phrase =>
    Ok (pbkdf2_hmac_sha512 (utf8 phrase) (utf8 (s2l "mnemonic" ++ nfkd pw)) 2048%N 64%nat)).
Proof. exact (C02.C02_salt pbkdf2_hmac_sha512 nfkd nfkd_ascii_prefix). Qed.
Print Assumptions C02k_salt.

(** an ASCII passphrase is used as typed: the salt bytes are "mnemonic" followed by it *)
Theorem C02k_ascii_passphrase : forall m pw, all_ascii pw ->
  seed pbkdf2_hmac_sha512 nfkd m pw = bind (to_phrase m) (fun phrase =>
    Ok (pbkdf2_hmac_sha512 (utf8 phrase) (s2l "mnemonic" ++ pw) 2048%N 64%nat)).
Proof. exact seed_ascii_passphrase. Qed.
Print Assumptions C02k_ascii_passphrase.

(** accepted phrase, ASCII passphrase: password and salt are these byte strings (the phrase
    consists of list words, which are ASCII) *)
Theorem C02k_seed_ascii : forall t m pw, from_phrase sha256 t = Ok m -> all_ascii pw ->
  seed pbkdf2_hmac_sha512 nfkd m pw
  = Ok (pbkdf2_hmac_sha512 (join [32%N] (split_ws t)) (s2l "mnemonic" ++ pw) 2048%N 64%nat).
Proof. exact seed_of_phrase_ascii. Qed.
Print Assumptions C02k_seed_ascii.

(** the seed has 64 bytes *)
Theorem C02k_seed_length : forall m pw s, seed pbkdf2_hmac_sha512 nfkd m pw = Ok s -> length s = 64%nat.
Proof. exact (C02.C02_seed_length pbkdf2_hmac_sha512 nfkd pbkdf2_length). Qed.
Print Assumptions C02k_seed_length.

(** every accepted phrase has a seed (what [Run/DC02.c02_seed] evaluates is never a panic) *)
Theorem C02k_seed_exists : forall t m pw, from_phrase sha256 t = Ok m ->
  exists sd, seed pbkdf2_hmac_sha512 nfkd m pw = Ok sd /\ length sd = 64%nat.
Proof.
  intros t m pw Hm. rewrite (C02k_seed_of_phrase t m pw Hm).
  eexists. split; [reflexivity|apply pbkdf2_length].
Qed.
Print Assumptions C02k_seed_exists.

(** NFKD is a normal form: applying it twice changes nothing (the decomposition table is closed and
    canonical reordering is idempotent, [Proofs/NfkdProofs.v]) *)
Theorem C02k_nfkd_idempotent : forall t, nfkd (nfkd t) = nfkd t.
Proof. exact nfkd_idempotent. Qed.
Print Assumptions C02k_nfkd_idempotent.

(** the seed depends on the passphrase only through its normal form: a passphrase and its
    NFKD-normalised spelling give the same seed ... *)
Theorem C02k_seed_of_normalised_passphrase : forall m pw,
  seed pbkdf2_hmac_sha512 nfkd m pw = seed pbkdf2_hmac_sha512 nfkd m (nfkd pw).
Proof.
  intros m pw. apply (C02.C02_nfkd_equiv_concrete m pw (nfkd pw)).
  symmetry. apply nfkd_idempotent.
Qed.
Print Assumptions C02k_seed_of_normalised_passphrase.

(** ... and any two passphrases with the same normal form do (the hypothesis is on the normal
    forms, which is decidable by computing them) *)
Theorem C02k_seed_depends_on_normal_form : forall m p1 p2,
  nfkd p1 = nfkd p2 -> seed pbkdf2_hmac_sha512 nfkd m p1 = seed pbkdf2_hmac_sha512 nfkd m p2.
Proof. exact C02.C02_nfkd_equiv_concrete. Qed.
Print Assumptions C02k_seed_depends_on_normal_form.

(** non-vacuity: a precomposed and a decomposed spelling (U+00E9 vs e + U+0301; the ligature
    U+FB01 vs "fi"; the Hangul syllable U+D55C vs its three jamo) have equal normal forms *)
Example C02k_normal_form_witnesses :
  nfkd [233%N] = nfkd [101%N; 769%N] /\ nfkd [64257%N] = nfkd [102%N; 105%N] /\
  nfkd [54620%N] = [4370%N; 4449%N; 4523%N] /\
  nfkd [113%N; 803%N; 775%N] = nfkd [113%N; 775%N; 803%N].
Proof. vm_compute. repeat split; reflexivity. Qed.
Print Assumptions C02k_normal_form_witnesses.

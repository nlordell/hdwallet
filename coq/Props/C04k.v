(** C04 (companion) — the theorems of [Props/C04.v] at the executable primitives that
    [Run/DC04.v] evaluates: [keccak := Prim.Keccak.keccak256] and
    [pubkey65 := Run.DC04.pubkey65] (= [ser_uncompressed (pt_mul_G k)] of [Prim/Secp256k1.v]).
    The premises about Keccak-256 (32 output bytes, each below 256) are discharged by
    [Keccak.keccak256_length] / [Keccak.keccak256_ok].  Statements only. *)
From Coq Require Import String.
From Coq Require Import List NArith Bool PeanoNat.
From HDW Require Import Lib.Outcome Lib.Bytes Lib.Hex Model.Account Spec.AccountSpec.
From HDW Require Import Prim.Keccak.
From HDW Require Import Run.DC04.
From HDW Require Props.C04.
Import ListNotations.
Open Scope N_scope.

(** * EIP-55 display: nothing assumed *)

Theorem C04k_eip55 : forall a, bytes_ok a -> length a = 20%nat ->
  exists body,
    eip55 keccak256 a = s2l "0x" ++ body
    /\ length body = 40%nat
    /\ map to_lower body = hex_encode a
    /\ forall i, (i < 40)%nat ->
         let c := nth i (hex_encode a) 0 in
         let up := hex_letter c /\ 8 <= nth i (nibbles (keccak256 (hex_encode a))) 0 in
         (up -> nth i body 0 = c - 32) /\ (~ up -> nth i body 0 = c).
Proof. exact (C04.C04_eip55 keccak256 keccak256_ok). Qed.
Print Assumptions C04k_eip55.

Theorem C04k_eip55_case : forall a, bytes_ok a -> length a = 20%nat ->
  exists body,
    eip55 keccak256 a = s2l "0x" ++ body
    /\ length body = 40%nat
    /\ map to_lower body = hex_encode a
    /\ forall i, (i < 40)%nat ->
         (is_upper (nth i body 0) = true
          <-> hex_letter (nth i (hex_encode a) 0)
              /\ 8 <= nth i (nibbles (keccak256 (hex_encode a))) 0)
         /\ (is_upper (nth i body 0) = true -> hex_LETTER (nth i body 0)).
Proof. exact (C04.C04_eip55_case keccak256 keccak256_ok). Qed.
Print Assumptions C04k_eip55_case.

Theorem C04k_eip55_decodes : forall a, bytes_ok a -> length a = 20%nat ->
  length (eip55 keccak256 a) = 42%nat
  /\ exists body, eip55 keccak256 a = s2l "0x" ++ body /\ hex_decode body = Some a.
Proof. exact (C04.C04_eip55_decodes keccak256 keccak256_ok). Qed.
Print Assumptions C04k_eip55_decodes.

(** * Public key and address *)

(** The two premises about [pubkey65] are KEPT: that [ser_uncompressed (pt_mul_G k)] has 65 bytes
    and starts with 0x04 for every k in [1, n-1] means that k·G is not the point at infinity,
    i.e. that G has order n in the curve group.  That group fact is not proved in this
    development ([Prim/Secp256k1.v] is an executable primitive without an algebraic theory);
    [Run/DC04.v] checks both premises on concrete scalars ([c04_pubkey65_one]) and the
    correspondence check compares [pubkey65] with the implementation on every generated key.
    The premise about Keccak-256 is discharged. *)
Theorem C04k_address :
  (forall k, 1 <= k < curve_n -> length (pubkey65 k) = 65%nat) ->
  (forall k, 1 <= k < curve_n -> hd 0 (pubkey65 k) = 4) ->
  forall k, 1 <= k < curve_n ->
    address keccak256 pubkey65 k = Ok (skipn 12 (keccak256 (skipn 1 (pubkey65 k))))
    /\ length (skipn 1 (pubkey65 k)) = 64%nat
    /\ length (skipn 12 (keccak256 (skipn 1 (pubkey65 k)))) = 20%nat
    /\ exists pre, keccak256 (skipn 1 (pubkey65 k)) = pre ++ skipn 12 (keccak256 (skipn 1 (pubkey65 k)))
                   /\ length pre = 12%nat.
Proof. exact (C04.C04_address keccak256 pubkey65 keccak256_length). Qed.
Print Assumptions C04k_address.

(** same premises kept, for the same reason *)
Theorem C04k_address_of_key :
  (forall k, 1 <= k < curve_n -> length (pubkey65 k) = 65%nat) ->
  (forall k, 1 <= k < curve_n -> hd 0 (pubkey65 k) = 4) ->
  forall b k, key_new b = Ok k ->
    exists a, address keccak256 pubkey65 k = Ok a /\ length a = 20%nat.
Proof. exact (C04.C04_address_of_key keccak256 pubkey65 keccak256_length). Qed.
Print Assumptions C04k_address_of_key.

(** C11 — Chain replay protection is never dropped silently.
    The proofs are lemmas of [Proofs/TxProofs.v] and [Proofs/TxCmdProofs.v] or a few steps from
    them.  Model: [sign_tx_cmd] ([cmd/sign.rs]), [sig_v]
    ([account/signature.rs]), [legacy_tail_rlp] ([transaction/legacy.rs]) in [Model/Tx.v].
    Keccak-256 ([keccak]) and the selected account's signer ([sign_digest]) are arbitrary
    functions.  Hypotheses [wf_tx], [tx_fits], [sig_fits], [doc_tokens_ok]: see [Props/C06.v]. *)
From Coq Require Import String.
From Coq Require Import List NArith ZArith Bool.
From HDW Require Import Lib.Outcome Lib.Bytes Lib.Hex Model.Json Model.Num Model.Rlp Model.SigText
  Model.Tx Spec.RlpSpec Spec.TxSpec.
From HDW Require Proofs.TxProofs Proofs.TxParseProofs Proofs.TxCmdProofs.
Import ListNotations.
Open Scope N_scope.

(** The signing command refuses a legacy transaction without chain id unless the override flag
    is given (in both output modes). *)
Theorem C11_guard : forall (keccak : bytes -> bytes) (sign_digest : bytes -> outcome sig) sigonly j t,
  tx_of_json j = Ok (Legacy t) -> l_chain_id t = None ->
  sign_tx_cmd keccak sign_digest false sigonly j = Err.
Proof. exact TxCmdProofs.guard. Qed.
Print Assumptions C11_guard.

(** ... and the guard refuses nothing else. *)
Theorem C11_guard_only : forall allow t,
  allow = true \/ tx_chain_id t <> None -> relay_protection_guard allow t = Ok tt.
Proof. exact TxCmdProofs.guard_passes. Qed.
Print Assumptions C11_guard_only.

(** With the override, what is signed is the plain six-field payload and v is 27 or 28:
    the printed signature is [print_sig σ] (whose last byte is 27 + yParity, C15_format) and the
    printed transaction carries [Int (27 + yParity)].
    [sign_digest]'s results are valid signatures (first hypothesis). *)
Theorem C11_override_v :
  forall (keccak : bytes -> bytes) (sign_digest : bytes -> outcome sig) sigonly j t out,
  (forall h σ, sign_digest h = Ok σ -> valid_sig σ) ->
  doc_tokens_ok j -> tx_of_json j = Ok (Legacy t) -> tx_fits (Legacy t) -> l_chain_id t = None ->
  sign_tx_cmd keccak sign_digest true sigonly j = Ok out ->
  exists σ,
    sign_digest (keccak (enc (Lst (legacy_fields t)))) = Ok σ
    /\ sig_v σ None = Ok (27 + parity_N σ) /\ parity_N σ <= 1
    /\ out = if sigonly then print_sig σ
             else s2l "0x" ++ hex_encode (enc (legacy_tree t
                    [Int (27 + parity_N σ); Int (sig_r σ); Int (sig_s σ)])).
Proof. exact TxCmdProofs.override_v. Qed.
Print Assumptions C11_override_v.

(** without a chain id, [v] is 27 + the parity, for every signature *)
Theorem C11_v_none : forall σ, sig_v σ None = Ok (27 + parity_N σ).
Proof. exact TxProofs.sig_v_none. Qed.
Print Assumptions C11_v_none.

(** v = 35 + 2c + yParity exactly as an integer whenever that fits 256 bits (for both parities) *)
Theorem C11_v_exact : forall σ c,
  2 * c + 36 < 2 ^ 256 -> sig_v σ (Some c) = Ok (35 + 2 * c + parity_N σ).
Proof. exact TxProofs.sig_v_exact. Qed.
Print Assumptions C11_v_exact.

(** ... and never a wrapped value: beyond that the overflow check of the debug build fires.
    (Unreachable from a parsed document, next theorems.) *)
Theorem C11_v_overflow : forall σ c,
  2 ^ 256 <= 35 + 2 * c + parity_N σ -> sig_v σ (Some c) = Panic.
Proof. intros σ c H. rewrite TxProofs.sig_v_some. apply N.ltb_ge in H. rewrite H. reflexivity. Qed.
Print Assumptions C11_v_overflow.

(** the parser's bound makes the overflow branch unreachable *)
Theorem C11_v_no_panic_parsed : forall j t c σ,
  tx_of_json j = Ok (Legacy t) -> l_chain_id t = Some c ->
  sig_v σ (Some c) = Ok (35 + 2 * c + parity_N σ).
Proof. exact TxCmdProofs.v_no_panic_parsed. Qed.
Print Assumptions C11_v_no_panic_parsed.

(** A legacy document whose chain id is a number [c] with [2c + 36 >= 2^256] is refused by the
    parser ... *)
Theorem C11_too_large : forall kvs cj c,
  kind_of_keys kvs = KLegacy -> obj_get k_chain_id kvs = Some cj -> permissive_u256 cj = Ok c ->
  2 ^ 256 <= 2 * c + 36 -> tx_of_json (JObj kvs) = Err.
Proof. exact TxCmdProofs.too_large. Qed.
Print Assumptions C11_too_large.

(** ... hence by [sign transaction], before anything is signed. *)
Theorem C11_too_large_cmd :
  forall (keccak : bytes -> bytes) (sign_digest : bytes -> outcome sig) allow sigonly kvs cj c,
  kind_of_keys kvs = KLegacy -> obj_get k_chain_id kvs = Some cj -> permissive_u256 cj = Ok c ->
  2 ^ 256 <= 2 * c + 36 -> sign_tx_cmd keccak sign_digest allow sigonly (JObj kvs) = Err.
Proof.
  intros keccak sign_digest allow sigonly kvs cj c Hk Hget Hc Hbig. unfold sign_tx_cmd.
  rewrite (TxCmdProofs.too_large kvs cj c Hk Hget Hc Hbig). reflexivity.
Qed.
Print Assumptions C11_too_large_cmd.

(** Where the chain id sits in the trees of [Spec/TxSpec.v] (read off their definitions; that these
    trees are what is hashed and signed is [C11_sign_cmd_spec]): the unsigned legacy list ends in
    (c, 0, 0) ... *)
Theorem C11_bound_legacy : forall t c,
  l_chain_id t = Some c ->
  unsigned_tree (Legacy t) = Lst (legacy_fields t ++ [Int c; Int 0; Int 0]).
Proof. intros t c H. cbn [unsigned_tree]. rewrite H. reflexivity. Qed.
Print Assumptions C11_bound_legacy.

(** ... and it is the first element of the unsigned and of the signed list of a typed transaction. *)
Theorem C11_bound_typed :
  (forall t σ, exists rest rest',
      signed_tree (Eip2930 t) σ = Lst (Int (e2_chain_id t) :: rest)
      /\ unsigned_tree (Eip2930 t) = Lst (Int (e2_chain_id t) :: rest'))
  /\ (forall t σ, exists rest rest',
      signed_tree (Eip1559 t) σ = Lst (Int (e5_chain_id t) :: rest)
      /\ unsigned_tree (Eip1559 t) = Lst (Int (e5_chain_id t) :: rest')).
Proof. split; intros t σ; do 2 eexists; split; reflexivity. Qed.
Print Assumptions C11_bound_typed.

(** what the command signs and prints when it signs *)
Theorem C11_sign_cmd_spec :
  forall (keccak : bytes -> bytes) (sign_digest : bytes -> outcome sig) allow sigonly j t σ,
  tx_of_json j = Ok t -> wf_tx t -> tx_fits t ->
  allow = true \/ tx_chain_id t <> None ->
  sign_digest (keccak (payload t)) = Ok σ -> sig_fits σ ->
  sign_tx_cmd keccak sign_digest allow sigonly j
  = Ok (if sigonly then print_sig σ else s2l "0x" ++ hex_encode (signed_bytes t σ)).
Proof. exact TxCmdProofs.sign_cmd_spec. Qed.
Print Assumptions C11_sign_cmd_spec.

(** Two transactions of one kind with different chain ids (in particular: differing only in
    the chain id, or one legacy transaction with and one without) have different signing
    payloads (RLP injectivity, C07) ... *)
Theorem C11_chain_separation : forall t1 t2,
  wf_tx t1 -> tx_fits t1 -> wf_tx t2 -> tx_fits t2 -> kind t1 = kind t2 ->
  tx_chain_id t1 <> tx_chain_id t2 -> payload t1 <> payload t2.
Proof.
  intros t1 t2 Hw1 Hf1 Hw2 Hf2 _ Hne Hp. apply Hne, TxCmdProofs.payload_binds_chain; assumption.
Qed.
Print Assumptions C11_chain_separation.

(** ... hence different digests, unless Keccak collides on these two explicit, distinct inputs.
    (That an ECDSA signature valid for one digest is not valid for another is the cryptographic
    conclusion; it is named, not proved.) *)
Theorem C11_chain_separation_digest : forall (keccak : bytes -> bytes) t1 t2,
  wf_tx t1 -> tx_fits t1 -> wf_tx t2 -> tx_fits t2 -> kind t1 = kind t2 ->
  tx_chain_id t1 <> tx_chain_id t2 ->
  signing_message keccak t1 = signing_message keccak t2 ->
  payload t1 <> payload t2 /\ keccak (payload t1) = keccak (payload t2).
Proof.
  intros keccak t1 t2 Hw1 Hf1 Hw2 Hf2 Hk Hne H. split; [apply C11_chain_separation; assumption|].
  rewrite !TxCmdProofs.signing_payload in H by assumption. injection H as H. exact H.
Qed.
Print Assumptions C11_chain_separation_digest.

(** the command never panics (for a signer that does not) *)
Theorem C11_total :
  forall (keccak : bytes -> bytes) (sign_digest : bytes -> outcome sig) allow sigonly j,
  (forall h, graceful (sign_digest h)) ->
  (forall h σ, sign_digest h = Ok σ -> valid_sig σ) ->
  doc_tokens_ok j -> (forall t, tx_of_json j = Ok t -> tx_fits t) ->
  graceful (sign_tx_cmd keccak sign_digest allow sigonly j).
Proof. exact TxCmdProofs.sign_cmd_graceful. Qed.
Print Assumptions C11_total.

(** ** Examples *)

Definition ex_doc (chain : list (text * json)) : json :=
  JObj (chain ++ [(k_nonce, JU64 0); (k_gas_price, JU64 0); (k_gas, JU64 21000);
                  (k_value, JU64 0); (k_data, JStr (s2l "0x"))]).
Definition ex_signer (_ : bytes) : outcome sig := Ok {| sig_r := 1; sig_s := 2; sig_parity := true |}.
Definition ex_keccak (b : bytes) : bytes := repeat 0 32.

Example C11_ex_guard :
  sign_tx_cmd ex_keccak ex_signer false false (ex_doc []) = Err
  /\ sign_tx_cmd ex_keccak ex_signer false true (ex_doc [(k_chain_id, JNull)]) = Err
  /\ is_ok (sign_tx_cmd ex_keccak ex_signer true false (ex_doc [])) = true
  /\ is_ok (sign_tx_cmd ex_keccak ex_signer false false (ex_doc [(k_chain_id, JU64 0)])) = true.
Proof. vm_compute. repeat split; reflexivity. Qed.

(** the largest chain id 2^255 - 19: v = 2^256 - 3 + yParity, no wrap; one more is refused *)
Example C11_ex_max_chain :
  sig_v {| sig_r := 1; sig_s := 2; sig_parity := true |} (Some ((2 ^ 256 - 37) / 2)) = Ok (2 ^ 256 - 2)
  /\ sign_tx_cmd ex_keccak ex_signer false false
       (ex_doc [(k_chain_id, JStr (s2l "0x7fffffffffffffffffffffffffffffffffffffffffffffffffffffffffffffee"))])
     = Err.
Proof. vm_compute. repeat split; reflexivity. Qed.

(** C14 — HD path text is unambiguous: standard indices only, canonical round trip.
    The statements, each derived in a few lines from [Proofs/PathProofs.v].

    Vocabulary ([Model/Path.v]): [spells t c] — [t] is an optional '+', one or more ASCII digits
    denoting [comp_value c] < 2^31, and an apostrophe exactly when [c] is hardened;
    [comp_shape t] — the same outer shape with any value; [join 47 ts] — the texts [ts] with '/'
    between neighbours (every text [r] is [join 47 [r]], so "any text around" is covered);
    [bip32_index c] — the 32-bit word [value | HARDENED] / [value] that key derivation uses. *)
From Coq Require Import String.
From Coq Require Import List NArith Bool.
From HDW Require Import Lib.Outcome Lib.Bytes Lib.Decimal Model.Path Proofs.PathProofs.
Import ListNotations.
Open Scope N_scope.

(** m/i1/i2/… in canonical decimal, indices below 2^31, is accepted and yields these indices. *)
Theorem C14_accept_canonical : forall p,
  p <> [] -> Forall (fun c => comp_value c < 2 ^ 31) p -> parse_path (print_path p) = Ok p.
Proof. exact accept_canonical. Qed.
Print Assumptions C14_accept_canonical.

(** Every accepted path is non-empty and has all indices below 2^31 ... *)
Theorem C14_parsed_in_range : forall s p,
  parse_path s = Ok p -> p <> [] /\ Forall (fun c => comp_value c < 2 ^ 31) p.
Proof. exact parsed_in_range. Qed.
Print Assumptions C14_parsed_in_range.

(** ... so its printed (canonical) form parses to the same path (hence derives the same key). *)
Theorem C14_print_parse : forall s p, parse_path s = Ok p -> parse_path (print_path p) = Ok p.
Proof. intros s p H. apply parsed_in_range in H as [Hne Hr]. apply accept_canonical; assumption. Qed.
Print Assumptions C14_print_parse.

(** The word fed to HMAC: below 2^31 the OR with the hardened bit is an addition, *)
Theorem C14_index_is_add : forall c,
  comp_value c < 2 ^ 31 ->
  bip32_index c = match c with Hardened v => v + 2 ^ 31 | Normal v => v end.
Proof. exact index_is_add. Qed.
Print Assumptions C14_index_is_add.

(** so two accepted texts select the same BIP-32 index sequence only if they are the same path. *)
Theorem C14_no_alias : forall s1 s2 p1 p2,
  parse_path s1 = Ok p1 -> parse_path s2 = Ok p2 ->
  map bip32_index p1 = map bip32_index p2 -> p1 = p2.
Proof.
  intros s1 s2 p1 p2 H1 H2. apply map_index_inj; [apply (parsed_in_range s1)|apply (parsed_in_range s2)]; assumption.
Qed.
Print Assumptions C14_no_alias.

(** Soundness: only "m/" followed by '/'-separated spellings of the components is accepted. *)
Theorem C14_sound : forall s p,
  parse_path s = Ok p ->
  exists comps, s = s2l "m/" ++ join 47 comps /\ Forall2 spells comps p.
Proof. intros s p H. destruct (sound s p H) as (comps & _ & E & F). eauto. Qed.
Print Assumptions C14_sound.

(** Completeness: every such text with at least one component is accepted (this includes the non-canonical spellings
    "+5" and "007" that Rust's [u32] parser accepts). *)
Theorem C14_complete : forall comps p,
  comps <> [] -> Forall2 spells comps p -> parse_path (s2l "m/" ++ join 47 comps) = Ok p.
Proof. exact complete. Qed.
Print Assumptions C14_complete.

(** Rejections.  Missing root: *)
Theorem C14_reject_no_root : forall s, (forall r, s <> s2l "m/" ++ r) -> parse_path s = Err.
Proof.
  intros s Hs. apply graceful_not_ok_err; [apply total_parse|]. intros p H.
  apply sound in H as (comps & _ & E & _). exact (Hs _ E).
Qed.
Print Assumptions C14_reject_no_root.

(** an index of 2^31 or more, normal or hardened, anywhere in the path: *)
Theorem C14_reject_out_of_range : forall pre post v suffix,
  2 ^ 31 <= v -> (suffix = [] \/ suffix = [39]) ->
  parse_path (s2l "m/" ++ join 47 (pre ++ (decimal v ++ suffix) :: post)) = Err.
Proof. exact reject_out_of_range. Qed.
Print Assumptions C14_reject_out_of_range.

(** (the same for every spelling of such a number: '+', leading zeros) *)
Theorem C14_reject_out_of_range_spelled : forall pre post plus digits suffix,
  (plus = [] \/ plus = [43]) -> digits <> [] -> all_digits digits -> (suffix = [] \/ suffix = [39]) ->
  2 ^ 31 <= dec_value digits ->
  parse_path (s2l "m/" ++ join 47 (pre ++ (plus ++ digits ++ suffix) :: post)) = Err.
Proof. exact reject_out_of_range_spelled. Qed.
Print Assumptions C14_reject_out_of_range_spelled.

(** an empty component ("m/" itself, "m//0", "m/0/"): *)
Theorem C14_reject_empty_component : forall pre post,
  parse_path (s2l "m/" ++ join 47 (pre ++ [] :: post)) = Err.
Proof. intros pre post. apply reject_component; [intros []|reflexivity]. Qed.
Print Assumptions C14_reject_empty_component.

(** any character other than ASCII digits, '+', '\'' and '/' after the root
    ('-', '.', 'x', '_', space, non-ASCII digits, …): *)
Theorem C14_reject_bad_char : forall r x,
  In x r -> bad_char x -> parse_path (s2l "m/" ++ r) = Err.
Proof.
  intros r x Hin (Hd & Hplus & Hap & Hsl). rewrite <- (join_split 47 r) in Hin.
  destruct (in_join _ _ _ Hin) as [E|(t & Ht & Hxt)]; [contradiction|].
  eapply reject_piece; [exact Ht|]. apply parse_component_unshaped. intros Hs.
  apply shape_chars in Hs. rewrite Forall_forall in Hs. destruct (Hs x Hxt) as [H|[H|H]]; contradiction.
Qed.
Print Assumptions C14_reject_bad_char.

(** a component that is not [+]digits['] ("+", "'", "1''", "5+", "'5", "++5", …): *)
Theorem C14_reject_bad_shape : forall pre t post,
  ~ In 47 t -> ~ comp_shape t -> parse_path (s2l "m/" ++ join 47 (pre ++ t :: post)) = Err.
Proof. intros pre t post Ht Hs. apply reject_component; [exact Ht|apply parse_component_unshaped, Hs]. Qed.
Print Assumptions C14_reject_bad_shape.

(** The default account path. *)
Theorem C14_for_index_ok : forall i,
  i < 2 ^ 31 -> for_index i = Ok [Hardened 44; Hardened 60; Hardened 0; Normal 0; Normal i].
Proof. exact for_index_ok. Qed.
Print Assumptions C14_for_index_ok.

Theorem C14_for_index_reject : forall i, 2 ^ 31 <= i -> for_index i = Err.
Proof. exact for_index_reject. Qed.
Print Assumptions C14_for_index_reject.

(** Parsing never panics. *)
Theorem C14_total : forall s, graceful (parse_path s).
Proof. exact total_parse. Qed.
Print Assumptions C14_total.

Theorem C14_total_for_index : forall i, graceful (for_index i).
Proof. exact total_for_index. Qed.
Print Assumptions C14_total_for_index.

(** Non-vacuity. *)
Example C14_example_max :
  parse_path (s2l "m/44'/60'/0'/0/2147483647")
  = Ok [Hardened 44; Hardened 60; Hardened 0; Normal 0; Normal 2147483647].
Proof. vm_compute. reflexivity. Qed.

Example C14_example_alias_rejected : parse_path (s2l "m/2147483648'") = Err.
Proof. vm_compute. reflexivity. Qed.

Example C14_example_lenient : parse_path (s2l "m/+5/007") = Ok [Normal 5; Normal 7].
Proof. vm_compute. reflexivity. Qed.

Example C14_example_spells : spells (s2l "+5'") (Hardened 5) /\ bad_char 45.
Proof.
  split.
  - exists [43], [53]. repeat split; try reflexivity; [right; reflexivity|discriminate|].
    repeat constructor; discriminate.
  - unfold bad_char. repeat split; try discriminate. intros [H _]. apply H. reflexivity.
Qed.

Example C14_example_index :
  map bip32_index [Hardened 0; Normal 2147483647] = [2147483648; 2147483647].
Proof. vm_compute. reflexivity. Qed.

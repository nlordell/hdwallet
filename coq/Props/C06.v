(** C06 — Signed transactions are the exact typed encodings.
    The proofs are lemmas of [Proofs/TxProofs.v], [Proofs/TxParseProofs.v] and [Proofs/TxCmdProofs.v]
    or a few steps from them.
    Model: [Model/Tx.v] (mirrors [src/transaction.rs], [transaction/{legacy,eip2930,eip1559,
    accesslist}.rs], [account/signature.rs]); specification: [Spec/TxSpec.v] (the item trees of
    EIP-155 / EIP-2930 / EIP-1559 over the Yellow-Paper [enc] of [Spec/RlpSpec.v]).

    Hypotheses that recur:
    - [wf_tx t]: every integer below 2^256, address 20 bytes, storage keys 32 bytes, bytes below
      256, and for a legacy chain id [2c + 36 < 2^256] — what the parser guarantees ([C06_wf_parsed]);
    - [tx_fits t]: calldata length + 64 * (access-list entries + storage keys) + 1024 < 2^64 (the
      transaction exists in a 64-bit address space; the code's [usize] sums are overflow-checked);
    - [sig_fits σ]: r and s below 2^256 (every [valid_sig] is). *)
From Coq Require Import String.
From Coq Require Import List NArith ZArith Bool.
From HDW Require Import Lib.Outcome Lib.Bytes Lib.Hex Model.Json Model.Num Model.Rlp Model.SigText
  Model.Tx Spec.RlpSpec Spec.TxSpec.
From HDW Require Proofs.TxProofs Proofs.TxParseProofs Proofs.TxCmdProofs.
Import ListNotations.
Open Scope N_scope.

(** ** The emitted bytes *)

(** rlp([nonce, gasPrice, gas, to, value, data, v, r, s]), v = 35 + 2 chainId + yParity or 27 + yParity *)
Theorem C06_legacy_bytes : forall t σ,
  wf_legacy t -> tx_fits (Legacy t) -> sig_fits σ ->
  encode (Legacy t) σ
  = Ok (enc (legacy_tree t [Int (spec_v σ (l_chain_id t)); Int (sig_r σ); Int (sig_s σ)])).
Proof. intros t σ. exact (TxCmdProofs.encode_signed_bytes (Legacy t) σ). Qed.
Print Assumptions C06_legacy_bytes.

(** 0x01 ‖ rlp([chainId, nonce, gasPrice, gas, to, value, data, accessList, yParity, r, s]) *)
Theorem C06_eip2930_bytes : forall t σ,
  wf_eip2930 t -> tx_fits (Eip2930 t) -> sig_fits σ ->
  encode (Eip2930 t) σ
  = Ok ([0x01] ++ enc (eip2930_tree t [Int (parity_N σ); Int (sig_r σ); Int (sig_s σ)])).
Proof. intros t σ. exact (TxCmdProofs.encode_signed_bytes (Eip2930 t) σ). Qed.
Print Assumptions C06_eip2930_bytes.

(** 0x02 ‖ rlp([chainId, nonce, maxPriorityFeePerGas, maxFeePerGas, gas, to, value, data,
    accessList, yParity, r, s]) *)
Theorem C06_eip1559_bytes : forall t σ,
  wf_eip1559 t -> tx_fits (Eip1559 t) -> sig_fits σ ->
  encode (Eip1559 t) σ
  = Ok ([0x02] ++ enc (eip1559_tree t [Int (parity_N σ); Int (sig_r σ); Int (sig_s σ)])).
Proof. intros t σ. exact (TxCmdProofs.encode_signed_bytes (Eip1559 t) σ). Qed.
Print Assumptions C06_eip1559_bytes.

(** all kinds at once: [signed_bytes t σ = type_prefix t ++ enc (signed_tree t σ)] *)
Theorem C06_signed_bytes : forall t σ,
  wf_tx t -> tx_fits t -> sig_fits σ -> encode t σ = Ok (signed_bytes t σ).
Proof. exact TxCmdProofs.encode_signed_bytes. Qed.
Print Assumptions C06_signed_bytes.

(** The digest that is signed is Keccak of the same payload without the signature ... *)
Theorem C06_signing_payload : forall (keccak : bytes -> bytes) t,
  wf_tx t -> tx_fits t -> signing_message keccak t = Ok (keccak (payload t)).
Proof. exact TxCmdProofs.signing_payload. Qed.
Print Assumptions C06_signing_payload.

(** ... where [payload] is, by its definition in [Spec/TxSpec.v], the list of the fields: for
    legacy with (chainId, 0, 0) appended iff there is a chain id, for the typed kinds behind the type byte. *)
Theorem C06_payload_shape :
  (forall t, payload (Legacy t)
             = enc (Lst (legacy_fields t ++
                         match l_chain_id t with Some c => [Int c; Int 0; Int 0] | None => [] end)))
  /\ (forall t, payload (Eip2930 t) = [0x01] ++ enc (Lst (eip2930_fields t)))
  /\ (forall t, payload (Eip1559 t) = [0x02] ++ enc (Lst (eip1559_fields t))).
Proof. repeat split. Qed.
Print Assumptions C06_payload_shape.

(** ** From JSON *)

(** EIP-1559 when a fee-market key is present, else EIP-2930 when an access list is present,
    else legacy ([obj_has] is [contains_key]: a [null] value counts). *)
Theorem C06_kind : forall kvs t,
  tx_of_json (JObj kvs) = Ok t ->
  (kind t = KEip1559 <->
     obj_has k_max_priority_fee_per_gas kvs || obj_has k_max_fee_per_gas kvs = true)
  /\ (kind t = KEip2930 <->
        obj_has k_max_priority_fee_per_gas kvs || obj_has k_max_fee_per_gas kvs = false
        /\ obj_has k_access_list kvs = true)
  /\ (kind t = KLegacy <->
        obj_has k_max_priority_fee_per_gas kvs || obj_has k_max_fee_per_gas kvs = false
        /\ obj_has k_access_list kvs = false).
Proof.
  intros kvs t H. apply TxParseProofs.tx_of_json_iff in H as [-> _]. unfold kind_of_keys, fee_market_keys.
  destruct (obj_has k_max_priority_fee_per_gas kvs || obj_has k_max_fee_per_gas kvs),
    (obj_has k_access_list kvs).
  (* in each of the four cases all equations are between constructors *)
  all: intuition congruence.
Qed.
Print Assumptions C06_kind.

(** Every field of the accepted transaction is the field-level parse of its member
    ([tx_parsed]: e.g. [num_field "nonce" kvs = Ok (l_nonce t)]), so C13's exactness transfers;
    and conversely. *)
Theorem C06_fields_from_json : forall kvs t,
  tx_of_json (JObj kvs) = Ok t <-> kind t = kind_of_keys kvs /\ tx_parsed kvs t.
Proof. exact TxParseProofs.tx_of_json_iff. Qed.
Print Assumptions C06_fields_from_json.

(** a numeric member is required and read by [permissive_u256] (C13) *)
Theorem C06_num_field : forall k kvs v,
  num_field k kvs = Ok v <-> exists j, obj_get k kvs = Some j /\ permissive_u256 j = Ok v.
Proof. exact TxParseProofs.num_field_iff. Qed.
Print Assumptions C06_num_field.

Theorem C06_data_field : forall kvs b,
  data_field kvs = Ok b <-> exists j, obj_get k_data kvs = Some j /\ bytes_field j = Ok b.
Proof. exact TxParseProofs.data_field_iff. Qed.
Print Assumptions C06_data_field.

(** absent or null recipient = [None] (encoded as the empty string, see [to_item]) *)
Theorem C06_to_absent_or_null : forall kvs,
  obj_get k_to kvs = None \/ obj_get k_to kvs = Some JNull -> to_field kvs = Ok None.
Proof. unfold to_field. intros kvs [-> | ->]; reflexivity. Qed.
Print Assumptions C06_to_absent_or_null.

Theorem C06_to_present : forall kvs a,
  to_field kvs = Ok (Some a) -> exists j, obj_get k_to kvs = Some j /\ address_field j = Ok a.
Proof. exact TxParseProofs.to_field_some. Qed.
Print Assumptions C06_to_present.

(** the optional legacy chain id: absent or null = none; otherwise a C13 number with [2c + 36 < 2^256] *)
Theorem C06_legacy_chain_none : forall kvs,
  obj_get k_chain_id kvs = None \/ obj_get k_chain_id kvs = Some JNull ->
  legacy_chain_field kvs = Ok None.
Proof. unfold legacy_chain_field. intros kvs [-> | ->]; reflexivity. Qed.
Print Assumptions C06_legacy_chain_none.

Theorem C06_legacy_chain_some : forall kvs c,
  legacy_chain_field kvs = Ok (Some c) ->
  (exists j, obj_get k_chain_id kvs = Some j /\ permissive_u256 j = Ok c) /\ 2 * c + 36 < 2 ^ 256.
Proof. exact TxParseProofs.legacy_chain_some. Qed.
Print Assumptions C06_legacy_chain_some.

(** the EIP-1559 access list defaults to empty *)
Theorem C06_access_list_default : forall kvs,
  obj_get k_access_list kvs = None -> access_list_default_field kvs = Ok [].
Proof. unfold access_list_default_field. intros kvs ->. reflexivity. Qed.
Print Assumptions C06_access_list_default.

(** anything but a JSON object is refused *)
Theorem C06_not_object : forall j, (forall kvs, j <> JObj kvs) -> tx_of_json j = Err.
Proof. intros j H. destruct j; try reflexivity. destruct (H _ eq_refl). Qed.
Print Assumptions C06_not_object.

(** Parsed values are in range.  [doc_tokens_ok]: serde_json's invariant on the number tokens
    of the members (a [u64] token is below 2^64, an [i64] token is negative). *)
Theorem C06_wf_parsed : forall j t, doc_tokens_ok j -> tx_of_json j = Ok t -> wf_tx t.
Proof. exact TxParseProofs.wf_parsed. Qed.
Print Assumptions C06_wf_parsed.

(** ** An independent strict decoder recovers every field *)

(** [body t bs]: [bs] without its type byte (none for legacy) *)
Theorem C06_decodes : forall t σ bs,
  wf_tx t -> tx_fits t -> sig_fits σ -> encode t σ = Ok bs ->
  dec_strict (body t bs) = Some (signed_tree t σ, []).
Proof. exact TxCmdProofs.decodes. Qed.
Print Assumptions C06_decodes.

Theorem C06_payload_decodes : forall t,
  wf_tx t -> tx_fits t -> dec_strict (body t (payload t)) = Some (unsigned_tree t, []).
Proof.
  intros t Hw Hf. unfold payload. rewrite <- TxProofs.tree_of_none.
  exact (TxCmdProofs.tree_decodes t None Hw Hf I).
Qed.
Print Assumptions C06_payload_decodes.

(** ** No panic *)

Theorem C06_total : forall j, graceful (tx_of_json j).
Proof. exact TxParseProofs.tx_of_json_graceful. Qed.
Print Assumptions C06_total.

Theorem C06_encode_total : forall t σ,
  wf_tx t -> tx_fits t -> sig_fits σ -> exists bs, encode t σ = Ok bs.
Proof. intros t σ Hw Hf Hs. eexists. apply TxCmdProofs.encode_signed_bytes; assumption. Qed.
Print Assumptions C06_encode_total.

(** ** Examples: the repository's vectors *)

Definition ex_addr0 : text := s2l "0x0000000000000000000000000000000000000000".
Definition ex_legacy_doc (chain : list (text * json)) : json :=
  JObj (chain ++ [(k_nonce, JU64 0); (k_gas_price, JU64 0); (k_gas, JU64 21000);
                  (k_to, JStr ex_addr0); (k_value, JU64 0); (k_data, JStr (s2l "0x"))]).

Definition hex_of (o : outcome bytes) : outcome text := omap hex_encode o.

(** [transaction::tests::encode_signed_transaction], first vector (no chain id, v = 0x1c) *)
Example C06_ex_signed_legacy :
  hex_of (bind (tx_of_json (ex_legacy_doc [])) (fun t => encode t
    {| sig_r := 0x0f1c0e95b7050ac3df5ac3b69a7d41e0b815da462fcd30954b1c37b58ca71c16;
       sig_s := 0x68dab467ad79359967a3df1bcfc17292a3839288d05274d0e3e391f8b508410b;
       sig_parity := true |}))
  = Ok (s2l ("f85f808082520894000000000000000000000000000000000000000080801ca0"
          ++ "0f1c0e95b7050ac3df5ac3b69a7d41e0b815da462fcd30954b1c37b58ca71c16"
          ++ "a068dab467ad79359967a3df1bcfc17292a3839288d05274d0e3e391f8b50841"
          ++ "0b")%string).
Proof. vm_compute. reflexivity. Qed.

(** second vector (chain id 1, v = 0x25 = 35 + 2 + 0) *)
Example C06_ex_signed_legacy_chain :
  hex_of (bind (tx_of_json (ex_legacy_doc [(k_chain_id, JU64 1)])) (fun t => encode t
    {| sig_r := 0xc97442e361bf3940bec722b240c699de22302469756436bbcc5a150a93309b08;
       sig_s := 0x2fd3e68ed327dea3d085ec16a8589ebf7871e5a990669f67be82a70cd9dfb4f7;
       sig_parity := false |}))
  = Ok (s2l ("f85f8080825208940000000000000000000000000000000000000000808025a0"
          ++ "c97442e361bf3940bec722b240c699de22302469756436bbcc5a150a93309b08"
          ++ "a02fd3e68ed327dea3d085ec16a8589ebf7871e5a990669f67be82a70cd9dfb4"
          ++ "f7")%string).
Proof. vm_compute. reflexivity. Qed.

(** third vector: an [accessList] key selects EIP-2930 *)
Example C06_ex_signed_eip2930 :
  hex_of (bind (tx_of_json (JObj [(k_chain_id, JU64 1); (k_nonce, JU64 0); (k_gas_price, JU64 0);
                                  (k_gas, JU64 21000); (k_to, JStr ex_addr0); (k_value, JU64 0);
                                  (k_data, JStr (s2l "0x")); (k_access_list, JArr [])]))
    (fun t => encode t
    {| sig_r := 0x4366d11301b0a233d0f311f93083583ed316c2ebd7246ccd93f1a320b257fd65;
       sig_s := 0x2e3df28ccda84b829403a04f2d142416f01bdf7036dba12b66e4add64d59455e;
       sig_parity := false |}))
  = Ok (s2l ("01f8610180808252089400000000000000000000000000000000000000008080"
          ++ "c080a04366d11301b0a233d0f311f93083583ed316c2ebd7246ccd93f1a320b2"
          ++ "57fd65a02e3df28ccda84b829403a04f2d142416f01bdf7036dba12b66e4add6"
          ++ "4d59455e")%string).
Proof. vm_compute. reflexivity. Qed.

(** fourth vector: fee-market keys select EIP-1559; the access list defaults to empty *)
Example C06_ex_signed_eip1559 :
  hex_of (bind (tx_of_json (JObj [(k_chain_id, JU64 1); (k_nonce, JU64 0);
                                  (k_max_priority_fee_per_gas, JU64 0); (k_max_fee_per_gas, JU64 0);
                                  (k_gas, JU64 21000); (k_to, JStr ex_addr0); (k_value, JU64 0);
                                  (k_data, JStr (s2l "0x"))]))
    (fun t => encode t
    {| sig_r := 0x290dbdecbc884b4cb827015fe0cd7ac90df1a5634d52a2845c21afacca14b803;
       sig_s := 0x3e848dd1a342e5528beff99c42876cf091a68e2090dbbced5a5f7f392d3abcda;
       sig_parity := true |}))
  = Ok (s2l ("02f8620180808082520894000000000000000000000000000000000000000080"
          ++ "80c001a0290dbdecbc884b4cb827015fe0cd7ac90df1a5634d52a2845c21afac"
          ++ "ca14b803a03e848dd1a342e5528beff99c42876cf091a68e2090dbbced5a5f7f"
          ++ "392d3abcda")%string).
Proof. vm_compute. reflexivity. Qed.

(** [legacy::tests::encode], first vector: the unsigned payload ends in (chainId, 0, 0) *)
Example C06_ex_legacy_preimage :
  hex_of (rlp_encode (Legacy {| l_nonce := 66; l_gas_price := 42000000000; l_gas := 30000;
                                l_to := Some (concat (repeat [0xde; 0xad; 0xbe; 0xef] 5));
                                l_value := 13370000000000000000; l_data := [];
                                l_chain_id := Some 1 |}) None)
  = Ok (s2l ("ec428509c765240082753094deadbeefdeadbeefdeadbeefdeadbeefdeadbeef"
          ++ "88b98bc829a6f9000080018080")%string).
Proof. vm_compute. reflexivity. Qed.

(** every valid signature fits ([sig_fits] is the weaker hypothesis used above) *)
Theorem C06_valid_sig_fits : forall σ, valid_sig σ -> sig_fits σ.
Proof. exact SigTextProofs.valid_sig_bounds. Qed.
Print Assumptions C06_valid_sig_fits.

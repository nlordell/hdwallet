(** C15 (signature text) — Printed signatures parse back; text that does not denote a
    signature is rejected with an error.
    The statements, each derived in a few lines from [Proofs/SigTextProofs.v].
    (The [C15_pipeline] statement about the two CLI commands is in [Props/C15p.v].) *)
From Coq Require Import String.
From Coq Require Import List NArith Bool PeanoNat.
From HDW Require Import Lib.Outcome Lib.Bytes Lib.Hex Model.SigText.
From HDW Require Import Proofs.HexCliProofs Proofs.SigTextProofs.
Import ListNotations.
Open Scope N_scope.

(** The text is [0x], the 64 lower-case hex digits of r, the 64 of s, the two of v = 27 + yParity. *)
Theorem C15_format : forall σ, sig_r σ < 2 ^ 256 -> sig_s σ < 2 ^ 256 ->
  exists rd sd vd,
    print_sig σ = s2l "0x" ++ rd ++ sd ++ vd
    /\ length rd = 64%nat /\ length sd = 64%nat /\ length vd = 2%nat
    /\ forallb lower_hex_char (rd ++ sd ++ vd) = true
    /\ hex_decode rd = Some (be_fixed 32 (sig_r σ)) /\ be_val (be_fixed 32 (sig_r σ)) = sig_r σ
    /\ hex_decode sd = Some (be_fixed 32 (sig_s σ)) /\ be_val (be_fixed 32 (sig_s σ)) = sig_s σ
    /\ hex_decode vd = Some [27 + (if sig_parity σ then 1 else 0)].
Proof. exact format. Qed.
Print Assumptions C15_format.

(** Parsing a printed signature returns an equal signature: with the prefix ... *)
Theorem C15_roundtrip : forall σ, valid_sig σ -> parse_sig (print_sig σ) = Ok σ.
Proof. exact roundtrip. Qed.
Print Assumptions C15_roundtrip.

(** ... without it ... *)
Theorem C15_roundtrip_noprefix : forall σ, valid_sig σ -> parse_sig (skipn 2 (print_sig σ)) = Ok σ.
Proof. intros σ Hv. exact (proj2 (roundtrip_body σ _ Hv (decode_printed σ))). Qed.
Print Assumptions C15_roundtrip_noprefix.

(** ... and with upper-case digits. *)
Theorem C15_roundtrip_upper : forall σ, valid_sig σ ->
  parse_sig (s2l "0x" ++ map to_upper (skipn 2 (print_sig σ))) = Ok σ.
Proof. intros σ Hv. exact (proj1 (roundtrip_body σ _ Hv (decode_printed_upper σ))). Qed.
Print Assumptions C15_roundtrip_upper.

Theorem C15_roundtrip_upper_noprefix : forall σ, valid_sig σ ->
  parse_sig (map to_upper (skipn 2 (print_sig σ))) = Ok σ.
Proof. intros σ Hv. exact (proj2 (roundtrip_body σ _ Hv (decode_printed_upper σ))). Qed.
Print Assumptions C15_roundtrip_upper_noprefix.

(** Every spelling (optional lower-case 0x, 130 digits in either case) of a valid signature is accepted. *)
Theorem C15_accept : forall σ t, valid_sig σ ->
  sig_spelling (sig_r σ) (sig_s σ) (v_legacy σ) t -> parse_sig t = Ok σ.
Proof. exact accept. Qed.
Print Assumptions C15_accept.

(** Only texts that denote a signature are accepted; printing the result gives the canonical
    (lower-case, prefixed) form of the input. *)
Theorem C15_sound : forall t σ, parse_sig t = Ok σ ->
  valid_sig σ /\
  exists body, (t = s2l "0x" ++ body \/ t = body) /\ map to_lower body = skipn 2 (print_sig σ).
Proof. intros t σ H. rewrite print_sig_body. exact (sound_spelling t σ H). Qed.
Print Assumptions C15_sound.

(** Everything else is an ordinary error. *)
Theorem C15_reject : forall t,
  (~ exists σ, valid_sig σ /\ sig_spelling (sig_r σ) (sig_s σ) (v_legacy σ) t) -> parse_sig t = Err.
Proof. exact reject. Qed.
Print Assumptions C15_reject.

(** Wrong length: the UTF-8 bytes left after the optional prefix are not 130. *)
Theorem C15_reject_length : forall t, length (sig_body t) <> 130%nat -> parse_sig t = Err.
Proof.
  intros t H. apply graceful_not_ok_err; [apply total|]. intros σ Hσ. apply H.
  destruct (parse_sig_inv t σ Hσ) as (bs & Hd & Hl & _).
  apply hex_decode_sound in Hd as (_ & _ & ->). rewrite Hl. reflexivity.
Qed.
Print Assumptions C15_reject_length.

(** Non-hex: some byte after the optional prefix is not a hex digit. *)
Theorem C15_reject_nonhex : forall t, forallb is_hex (sig_body t) = false -> parse_sig t = Err.
Proof. intros t H. unfold parse_sig, hex_decode_fixed. rewrite hex_decode_bad_char by exact H. reflexivity. Qed.
Print Assumptions C15_reject_nonhex.

(** A non-ASCII character anywhere makes a non-hex byte. *)
Theorem C15_reject_non_ascii : forall t, ~ all_ascii t -> parse_sig t = Err.
Proof.
  intros t H. apply graceful_not_ok_err; [apply total|]. intros σ Hσ. apply H.
  destruct (parse_sig_inv t σ Hσ) as (bs & Hd & _).
  exact (proj1 (sig_body_ascii_inv t (all_hex_ascii _ (hex_decode_all_hex _ _ Hd)))).
Qed.
Print Assumptions C15_reject_non_ascii.

(** Only the lower-case prefix is recognised: after [0X] the 'X' stays, and it is no hex digit. *)
Theorem C15_reject_0X : forall σ, parse_sig (s2l "0X" ++ skipn 2 (print_sig σ)) = Err.
Proof. intros σ. apply C15_reject_nonhex. reflexivity. Qed.
Print Assumptions C15_reject_0X.

(** v other than 27/28, r or s zero or not below the group order: on the canonical text ... *)
Theorem C15_reject_canonical : forall r s v,
  (r = 0 \/ secp_n <= r \/ s = 0 \/ secp_n <= s \/ (v <> 27 /\ v <> 28)) ->
  r < 2 ^ 256 -> s < 2 ^ 256 -> v < 256 ->
  parse_sig (s2l "0x" ++ hex_encode (be_fixed 32 r ++ be_fixed 32 s ++ [v])) = Err.
Proof.
  intros r s v Hbad Hr Hs Hv. rewrite (parse_canonical r s v Hr Hs Hv). apply sig_of_triple_err, Hbad.
Qed.
Print Assumptions C15_reject_canonical.

(** ... and, one theorem per cause, on every spelling [t] of the triple (r, s, v). *)
Theorem C15_reject_v : forall r s v t,
  r < 2 ^ 256 -> s < 2 ^ 256 -> v < 256 -> sig_spelling r s v t ->
  v <> 27 -> v <> 28 -> parse_sig t = Err.
Proof. intros r s v t Hr Hs Hv Hsp H1 H2. apply (reject_triple r s v t); auto 10. Qed.
Print Assumptions C15_reject_v.

Theorem C15_reject_r_zero : forall s v t,
  s < 2 ^ 256 -> v < 256 -> sig_spelling 0 s v t -> parse_sig t = Err.
Proof. intros s v t Hs Hv Hsp. apply (reject_triple 0 s v t); auto 10. reflexivity. Qed.
Print Assumptions C15_reject_r_zero.

Theorem C15_reject_s_zero : forall r v t,
  r < 2 ^ 256 -> v < 256 -> sig_spelling r 0 v t -> parse_sig t = Err.
Proof. intros r v t Hr Hv Hsp. apply (reject_triple r 0 v t); auto 10. reflexivity. Qed.
Print Assumptions C15_reject_s_zero.

Theorem C15_reject_r_big : forall r s v t,
  r < 2 ^ 256 -> s < 2 ^ 256 -> v < 256 -> sig_spelling r s v t ->
  secp_n <= r -> parse_sig t = Err.
Proof. intros r s v t Hr Hs Hv Hsp H. apply (reject_triple r s v t); auto 10. Qed.
Print Assumptions C15_reject_r_big.

Theorem C15_reject_s_big : forall r s v t,
  r < 2 ^ 256 -> s < 2 ^ 256 -> v < 256 -> sig_spelling r s v t ->
  secp_n <= s -> parse_sig t = Err.
Proof. intros r s v t Hr Hs Hv Hsp H. apply (reject_triple r s v t); auto 10. Qed.
Print Assumptions C15_reject_s_big.

(** The parser never panics. *)
Theorem C15_total : forall t, graceful (parse_sig t).
Proof. exact total. Qed.
Print Assumptions C15_total.

(** Non-vacuity. *)

Definition ex_r : N := 0x0101010101010101010101010101010101010101010101010101010101010101.
Definition ex_s : N := 0x0202020202020202020202020202020202020202020202020202020202020202.
Definition ex_text : text :=
  s2l "0x010101010101010101010101010101010101010101010101010101010101010102020202020202020202020202020202020202020202020202020202020202021b".

(** The repository's unit-test vector [signature::tests::signature_to_string]. *)
Example C15_example_print :
  print_sig {| sig_r := ex_r; sig_s := ex_s; sig_parity := false |} = ex_text.
Proof. vm_compute. reflexivity. Qed.

Example C15_example_parse :
  parse_sig ex_text = Ok {| sig_r := ex_r; sig_s := ex_s; sig_parity := false |}
  /\ parse_sig (skipn 2 ex_text) = Ok {| sig_r := ex_r; sig_s := ex_s; sig_parity := false |}
  /\ valid_sig {| sig_r := ex_r; sig_s := ex_s; sig_parity := false |}.
Proof. split; [|split]; [vm_compute; reflexivity..|]. repeat split; vm_compute; congruence. Qed.

Example C15_example_parity :
  print_sig {| sig_r := 1; sig_s := 2; sig_parity := true |}
  = s2l "0x" ++ repeat 48 63 ++ s2l "1" ++ repeat 48 63 ++ s2l "2" ++ s2l "1c".
Proof. vm_compute. reflexivity. Qed.

(** Boundary scalars: 0 and n are refused, n-1 is accepted (for r and for s).  s = n-1 is a
    "high" s (above n/2): the parser does not ask for a normalised signature.
    On a canonical text only [sig_of_triple] is left to evaluate. *)
Example C15_example_r_zero :
  parse_sig (s2l "0x" ++ hex_encode (be_fixed 32 0 ++ be_fixed 32 ex_s ++ [27])) = Err.
Proof. rewrite (parse_canonical 0 ex_s 27) by reflexivity. reflexivity. Qed.

Example C15_example_r_n :
  parse_sig (s2l "0x" ++ hex_encode (be_fixed 32 secp_n ++ be_fixed 32 ex_s ++ [27])) = Err.
Proof. rewrite (parse_canonical secp_n ex_s 27) by reflexivity. reflexivity. Qed.

Example C15_example_r_n_minus_1 :
  parse_sig (s2l "0x" ++ hex_encode (be_fixed 32 (secp_n - 1) ++ be_fixed 32 ex_s ++ [28]))
  = Ok {| sig_r := secp_n - 1; sig_s := ex_s; sig_parity := true |}.
Proof. rewrite (parse_canonical (secp_n - 1) ex_s 28) by reflexivity. reflexivity. Qed.

Example C15_example_s_bounds :
  parse_sig (s2l "0x" ++ hex_encode (be_fixed 32 ex_r ++ be_fixed 32 0 ++ [27])) = Err
  /\ parse_sig (s2l "0x" ++ hex_encode (be_fixed 32 ex_r ++ be_fixed 32 secp_n ++ [27])) = Err
  /\ parse_sig (s2l "0x" ++ hex_encode (be_fixed 32 ex_r ++ be_fixed 32 (secp_n - 1) ++ [27]))
     = Ok {| sig_r := ex_r; sig_s := secp_n - 1; sig_parity := false |}.
Proof. split; [|split]; rewrite parse_canonical by reflexivity; reflexivity. Qed.

(** Other v bytes, the upper-case prefix, a trailing character; upper-case digits are fine. *)
Example C15_example_v_and_case :
  parse_sig (s2l "0x" ++ hex_encode (be_fixed 32 ex_r ++ be_fixed 32 ex_s ++ [29])) = Err
  /\ parse_sig (s2l "0x" ++ hex_encode (be_fixed 32 ex_r ++ be_fixed 32 ex_s ++ [0])) = Err
  /\ parse_sig (s2l "0X" ++ skipn 2 ex_text) = Err
  /\ parse_sig (ex_text ++ s2l "0") = Err
  /\ parse_sig (s2l "0x" ++ map to_upper (skipn 2 ex_text))
     = Ok {| sig_r := ex_r; sig_s := ex_s; sig_parity := false |}.
Proof.
  split; [|split; [|split; [|split]]]; [rewrite parse_canonical by reflexivity; reflexivity..| | |];
    vm_compute; reflexivity.
Qed.

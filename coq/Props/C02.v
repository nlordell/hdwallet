(** C02 — Wallet seed is the BIP-39 PBKDF2 stretch of phrase and passphrase.  Statements; every
    proof is a lemma of [Proofs/EntropyProofs.v] or a line or two from one.
    PBKDF2-HMAC-SHA512 and SHA-256 are arbitrary functions in every statement; NFKD is arbitrary
    subject to [nfkd (ascii ++ p) = ascii ++ nfkd p], which is PROVED for the table-driven
    [Prim.Nfkd.nfkd] and discharged in the [_concrete] corollaries. *)
From Coq Require Import String.
From Coq Require Import List NArith Bool.
From HDW Require Import Lib.Outcome Lib.Bytes Model.Bip39 Spec.Bip39Spec Model.Seed Proofs.EntropyProofs.
From HDW Require Import Prim.Nfkd Prim.Pbkdf2.
Import ListNotations.

(** seed = PBKDF2(password = the canonical single-space phrase, salt = NFKD("mnemonic" + passphrase), 2048 rounds, 64 bytes) *)
Theorem C02_seed_def : forall (sha256 : bytes -> bytes) (pbkdf2 : bytes -> bytes -> N -> nat -> bytes) (nfkd : text -> text),
  (forall x, length (sha256 x) = 32%nat) -> (forall x, bytes_ok (sha256 x)) ->
  forall ent pw, bytes_ok ent -> valid_ent_len (length ent) ->
  seed pbkdf2 nfkd (mk_mnemonic sha256 ent) pw
  = Ok (pbkdf2 (utf8 (bip39_phrase sha256 ent)) (utf8 (nfkd (s2l "mnemonic" ++ pw))) 2048%N 64%nat).
Proof.
  intros sha256 pbkdf2 nfkd H1 H2 ent pw Hok Hv.
  apply seed_of_printed, (Bip39Proofs.to_phrase_ok sha256 H1 H2 ent Hok Hv).
Qed.
Print Assumptions C02_seed_def.

(** for a parsed phrase: the password is the words joined by single spaces, not the text typed *)
Theorem C02_seed_of_phrase : forall (sha256 : bytes -> bytes) (pbkdf2 : bytes -> bytes -> N -> nat -> bytes) (nfkd : text -> text),
  (forall x, length (sha256 x) = 32%nat) -> (forall x, bytes_ok (sha256 x)) ->
  forall t m pw, from_phrase sha256 t = Ok m ->
  seed pbkdf2 nfkd m pw
  = Ok (pbkdf2 (utf8 (join [32%N] (split_ws t))) (utf8 (nfkd (s2l "mnemonic" ++ pw))) 2048%N 64%nat).
Proof. intros sha256 pbkdf2 nfkd H1 H2. exact (seed_of_phrase sha256 H1 H2 pbkdf2 nfkd). Qed.
Print Assumptions C02_seed_of_phrase.

(** the white-space layout of the input phrase is irrelevant *)
Theorem C02_layout_irrelevant : forall (sha256 : bytes -> bytes) (pbkdf2 : bytes -> bytes -> N -> nat -> bytes) (nfkd : text -> text),
  (forall x, length (sha256 x) = 32%nat) -> (forall x, bytes_ok (sha256 x)) ->
  forall t1 t2 m1 m2 pw, split_ws t1 = split_ws t2 ->
  from_phrase sha256 t1 = Ok m1 -> from_phrase sha256 t2 = Ok m2 ->
  seed pbkdf2 nfkd m1 pw = seed pbkdf2 nfkd m2 pw.
Proof.
  intros sha256 pbkdf2 nfkd H1 H2 t1 t2 m1 m2 pw Hs E1 E2.
  rewrite (seed_of_phrase sha256 H1 H2 pbkdf2 nfkd t1 m1 pw E1), (seed_of_phrase sha256 H1 H2 pbkdf2 nfkd t2 m2 pw E2), Hs.
  reflexivity.
Qed.
Print Assumptions C02_layout_irrelevant.

(** NFKD-equivalent passphrases give the same seed *)
Theorem C02_nfkd_equiv : forall (pbkdf2 : bytes -> bytes -> N -> nat -> bytes) (nfkd : text -> text),
  (forall a p, all_ascii a -> nfkd (a ++ p) = a ++ nfkd p) ->
  forall m p1 p2, nfkd p1 = nfkd p2 -> seed pbkdf2 nfkd m p1 = seed pbkdf2 nfkd m p2.
Proof. intros pbkdf2 nfkd H m p1 p2 E. rewrite !(seed_salt pbkdf2 nfkd H), E. reflexivity. Qed.
Print Assumptions C02_nfkd_equiv.

(** ... in particular for the table-driven NFKD of Prim/Nfkd.v and the Gallina PBKDF2 *)
Theorem C02_nfkd_equiv_concrete : forall m p1 p2, Nfkd.nfkd p1 = Nfkd.nfkd p2 ->
  seed pbkdf2_hmac_sha512 Nfkd.nfkd m p1 = seed pbkdf2_hmac_sha512 Nfkd.nfkd m p2.
Proof. exact (C02_nfkd_equiv pbkdf2_hmac_sha512 Nfkd.nfkd nfkd_ascii_prefix). Qed.
Print Assumptions C02_nfkd_equiv_concrete.

(** the salt is "mnemonic" followed by the normalised passphrase *)
Theorem C02_salt : forall (pbkdf2 : bytes -> bytes -> N -> nat -> bytes) (nfkd : text -> text),
  (forall a p, all_ascii a -> nfkd (a ++ p) = a ++ nfkd p) ->
  forall m pw, seed pbkdf2 nfkd m pw = bind (to_phrase m) (fun phrase =>
    Ok (pbkdf2 (utf8 phrase) (utf8 (s2l "mnemonic" ++ nfkd pw)) 2048%N 64%nat)).
Proof. intros pbkdf2 nfkd H. exact (seed_salt pbkdf2 nfkd H). Qed.
Print Assumptions C02_salt.

(** the seed has 64 bytes (for any PBKDF2 that returns the requested number of bytes; Prim.Pbkdf2.pbkdf2_length is that fact
    for the Gallina PBKDF2) *)
Theorem C02_seed_length : forall (pbkdf2 : bytes -> bytes -> N -> nat -> bytes) (nfkd : text -> text),
  (forall a b c d, length (pbkdf2 a b c d) = d) ->
  forall m pw s, seed pbkdf2 nfkd m pw = Ok s -> length s = 64%nat.
Proof. intros pbkdf2 nfkd Hl m pw s. exact (seed_length pbkdf2 nfkd m pw s Hl). Qed.
Print Assumptions C02_seed_length.

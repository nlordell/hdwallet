(** C16 — Every command acts on the selected account and prints the standard result (partial:
    clap's own parsing — flag/environment equivalence, conflicts_with — is checked black-box).
    All primitives are universally quantified functions.  Each command is a chain of [let*], and
    each theorem says what its links are; the proofs are here, a few lines each: [bind_ok] takes a
    chain apart link by link ([Proofs/CliProofs.v] does it once for the chains several commands share). *)
From Coq Require Import String.
From Coq Require Import List NArith ZArith Bool.
From HDW Require Import Lib.Outcome Lib.Bytes Lib.Hex Model.Json.
From HDW Require Import Model.Bip39 Model.Seed Model.Path Model.Bip32 Model.Account Model.SigText Model.Message Model.Tx Model.Cli.
From HDW Require Import Proofs.CliProofs.
From HDW Require Proofs.PathProofs.
Import ListNotations.
Open Scope N_scope.

(** The account selector: default index 0, [--account-index i] selects m/44'/60'/0'/0/i for every i below 2^31
    (and is refused above), [--hd-path p] is the parsed path. *)
Theorem C16_selector :
  account_path SelDefault = Ok [Hardened 44; Hardened 60; Hardened 0; Normal 0; Normal 0]
  /\ (forall i, i < 2 ^ 31 -> account_path (SelIndex i) = Ok [Hardened 44; Hardened 60; Hardened 0; Normal 0; Normal i])
  /\ (forall i, 2 ^ 31 <= i -> account_path (SelIndex i) = Err)
  /\ (forall p, account_path (SelPath p) = parse_path p).
Proof.
  unfold account_path. split; [|split; [|split]].
  - apply PathProofs.for_index_ok. reflexivity.
  - exact PathProofs.for_index_ok.
  - exact PathProofs.for_index_reject.
  - reflexivity.
Qed.
Print Assumptions C16_selector.

(** The key every command uses: phrase -> seed (with the passphrase) -> path -> BIP-32 derivation. *)
Theorem C16_private_key : forall sha256 pbkdf2 nfkd hmac512 pub_compressed o k,
  private_key sha256 pbkdf2 nfkd hmac512 pub_compressed o = Ok k <->
  exists m sd p, from_phrase sha256 (o_mnemonic o) = Ok m /\ seed pbkdf2 nfkd m (o_password o) = Ok sd
                 /\ account_path (o_sel o) = Ok p /\ derive hmac512 pub_compressed sd p = Ok k.
Proof.
  intros *. unfold private_key. split.
  - intros H. apply bind_ok in H as (m & Hm & H). apply bind_ok in H as (sd & Hs & H).
    apply bind_ok in H as (p & Hp & H). eauto 8.
  - intros (m & sd & p & Hm & Hs & Hp & H). rewrite Hm. cbn [bind]. rewrite Hs. cbn [bind].
    rewrite Hp. exact H.
Qed.
Print Assumptions C16_private_key.

(** [address] prints the EIP-55 form of that key's address ... *)
Theorem C16_address : forall sha256 pbkdf2 nfkd hmac512 pub_compressed pubkey65 keccak o t,
  cmd_address sha256 pbkdf2 nfkd hmac512 pub_compressed pubkey65 keccak o = Ok t <->
  exists k a, private_key sha256 pbkdf2 nfkd hmac512 pub_compressed o = Ok k
              /\ address keccak pubkey65 k = Ok a /\ t = eip55 keccak a.
Proof.
  intros *. unfold cmd_address. split.
  - intros H. apply bind_ok in H as (k & Hk & H). apply bind_ok in H as (a & Ha & [= <-]). eauto.
  - intros (k & a & Hk & Ha & ->). rewrite Hk. cbn [bind]. rewrite Ha. reflexivity.
Qed.
Print Assumptions C16_address.

(** ... [export] [0x] and the hex digits of its 32-byte secret, [public-key] of its 65-byte public key. *)
Theorem C16_export : forall sha256 pbkdf2 nfkd hmac512 pub_compressed o t,
  cmd_export sha256 pbkdf2 nfkd hmac512 pub_compressed o = Ok t <->
  exists k, private_key sha256 pbkdf2 nfkd hmac512 pub_compressed o = Ok k /\ t = s2l "0x" ++ hex_encode (be_fixed 32 k).
Proof. intros *. apply omap_ok_iff. Qed.
Print Assumptions C16_export.

Theorem C16_public_key : forall sha256 pbkdf2 nfkd hmac512 pub_compressed pubkey65 o t,
  cmd_public_key sha256 pbkdf2 nfkd hmac512 pub_compressed pubkey65 o = Ok t <->
  exists k, private_key sha256 pbkdf2 nfkd hmac512 pub_compressed o = Ok k /\ t = s2l "0x" ++ hex_encode (pubkey65 k).
Proof. intros *. apply omap_ok_iff. Qed.
Print Assumptions C16_public_key.

(** [sign message] prints the selected key's signature over exactly the digest [hash message] prints. *)
Theorem C16_sign_message_is_sign_of_hash : forall sha256 pbkdf2 nfkd hmac512 pub_compressed keccak sign o m out,
  cmd_sign_message sha256 pbkdf2 nfkd hmac512 pub_compressed keccak sign o m = Ok out ->
  exists k d σ, private_key sha256 pbkdf2 nfkd hmac512 pub_compressed o = Ok k
                /\ cmd_hash_message keccak m = Ok (hex0x d) /\ d = digest keccak m
                /\ sign k d = Ok σ /\ out = print_sig σ.
Proof.
  intros * H. apply sign_and_print_iff in H as (k & dg & σ & Hk & [= <-] & Hs & Ho).
  exists k, (digest keccak m), σ. exact (conj Hk (conj eq_refl (conj eq_refl (conj Hs Ho)))).
Qed.
Print Assumptions C16_sign_message_is_sign_of_hash.

(** ... likewise [sign typeddata] and [hash typeddata] ... *)
Theorem C16_sign_typeddata_is_sign_of_hash : forall sha256 pbkdf2 nfkd hmac512 pub_compressed sign typed_data o j out,
  cmd_sign_typeddata sha256 pbkdf2 nfkd hmac512 pub_compressed sign typed_data o j = Ok out ->
  exists k d σ, private_key sha256 pbkdf2 nfkd hmac512 pub_compressed o = Ok k
                /\ cmd_hash_typeddata typed_data false j = Ok (hex0x d) /\ sign k d = Ok σ /\ out = print_sig σ.
Proof.
  intros * H. apply sign_and_print_iff in H as (k & dg & σ & Hk & Hd & Hs & Ho).
  apply bind_ok in Hd as ([[d ds] mh] & Hj & [= <-]).
  exists k, d, σ. unfold cmd_hash_typeddata. rewrite Hj. auto.
Qed.
Print Assumptions C16_sign_typeddata_is_sign_of_hash.

(** ... and [sign transaction --signature-only] and [hash transaction] without a signature. *)
Theorem C16_sign_transaction_is_sign_of_hash : forall sha256 pbkdf2 nfkd hmac512 pub_compressed keccak sign o allow j out,
  cmd_sign_transaction sha256 pbkdf2 nfkd hmac512 pub_compressed keccak sign o allow true j = Ok out ->
  exists k d σ, private_key sha256 pbkdf2 nfkd hmac512 pub_compressed o = Ok k
                /\ cmd_hash_transaction keccak j None = Ok (hex0x d) /\ sign k d = Ok σ /\ out = print_sig σ.
Proof.
  intros * H. apply sign_transaction_inv in H as (k & t & h & σ & Hk & Ht & Hh & Hs & [= <-]).
  exists k, h, σ. unfold cmd_hash_transaction, hash_tx_cmd. rewrite Ht. cbn [bind]. rewrite Hh. auto.
Qed.
Print Assumptions C16_sign_transaction_is_sign_of_hash.

(** full mode: the encoding of the transaction with that same signature *)
Theorem C16_sign_transaction_full : forall sha256 pbkdf2 nfkd hmac512 pub_compressed keccak sign o allow j out,
  cmd_sign_transaction sha256 pbkdf2 nfkd hmac512 pub_compressed keccak sign o allow false j = Ok out ->
  exists k t h σ e, private_key sha256 pbkdf2 nfkd hmac512 pub_compressed o = Ok k /\ tx_of_json j = Ok t
                    /\ signing_message keccak t = Ok h /\ sign k h = Ok σ /\ encode t σ = Ok e /\ out = hex0x e.
Proof.
  intros * H. apply sign_transaction_inv in H as (k & t & h & σ & Hk & Ht & Hh & Hs & H).
  apply omap_ok in H as (e & He & Ho). exists k, t, h, σ, e. repeat split; assumption.
Qed.
Print Assumptions C16_sign_transaction_full.

(** [sign raw] signs the given digest as it is. *)
Theorem C16_sign_raw : forall sha256 pbkdf2 nfkd hmac512 pub_compressed sign o d out,
  cmd_sign_raw sha256 pbkdf2 nfkd hmac512 pub_compressed sign o d = Ok out ->
  exists k σ, private_key sha256 pbkdf2 nfkd hmac512 pub_compressed o = Ok k /\ sign k d = Ok σ /\ out = print_sig σ.
Proof.
  intros * H. apply sign_and_print_iff in H as (k & dg & σ & Hk & [= <-] & Hs & Ho). eauto.
Qed.
Print Assumptions C16_sign_raw.

(** [hash data] is Keccak-256 of the input; [hash typeddata --message-hash] is the message struct hash alone. *)
Theorem C16_hash_data : forall (keccak : bytes -> bytes) x, cmd_hash_data keccak x = Ok (s2l "0x" ++ hex_encode (keccak x)).
Proof. reflexivity. Qed.
Print Assumptions C16_hash_data.

Theorem C16_message_hash_flag : forall typed_data j t,
  cmd_hash_typeddata typed_data true j = Ok t -> exists d ds mh, typed_data j = Ok (d, ds, mh) /\ t = hex0x mh.
Proof.
  intros * H. apply bind_ok in H as ([[d ds] mh] & Hj & [= <-]). eauto.
Qed.
Print Assumptions C16_message_hash_flag.

(** If the account cannot be loaded nothing is printed by any account command. *)
Theorem C16_no_account_no_output : forall sha256 pbkdf2 nfkd hmac512 pub_compressed pubkey65 keccak sign o,
  (forall k, private_key sha256 pbkdf2 nfkd hmac512 pub_compressed o <> Ok k) ->
  (forall t, cmd_address sha256 pbkdf2 nfkd hmac512 pub_compressed pubkey65 keccak o <> Ok t)
  /\ (forall t, cmd_export sha256 pbkdf2 nfkd hmac512 pub_compressed o <> Ok t)
  /\ (forall t, cmd_public_key sha256 pbkdf2 nfkd hmac512 pub_compressed pubkey65 o <> Ok t)
  /\ (forall d t, sign_and_print sha256 pbkdf2 nfkd hmac512 pub_compressed sign o d <> Ok t).
Proof.
  intros * Hn. repeat split; intros; intros H; apply bind_ok in H as (k & Hk & _); exact (Hn k Hk).
Qed.
Print Assumptions C16_no_account_no_output.

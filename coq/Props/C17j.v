(** C17 (companion) — reading a JSON document: the reader of [Model/JsonText.v]
    ([serde_json::from_slice] as hdwallet calls it for transactions and typed data) returns a value or an
    ordinary error for EVERY byte string — no panic branch, and the fuel [parse_doc] gives the
    value parser (2·|s|+2) is never exhausted, whatever the nesting — and so does the whole pipeline
    bytes -> JSON -> transaction. *)
From Coq Require Import List NArith ZArith Bool.
From HDW Require Import Lib.Outcome Lib.Bytes Model.Json Model.JsonText Model.Tx Proofs.JsonTextProofs.
From HDW Require Import Model.Eip712Values Spec.Eip712ValueSpec Proofs.Eip712ValueInst.
From HDW Require Props.C06 Props.C17.
Import ListNotations.
Open Scope N_scope.

Theorem C17j_json_reader_total : forall s : bytes, graceful (parse_doc s).
Proof. exact parse_doc_total. Qed.
Print Assumptions C17j_json_reader_total.

(** with the fuel of [parse_doc] or more, the value parser consumes input: the rest it returns is
    strictly shorter than what it was given *)
Theorem C17j_value_parser_consumes : forall f d s,
  (2 * length s + 2 <= f)%nat -> good s (pv f d s).
Proof. intros f d s. exact (proj1 (all_steps f) d s). Qed.
Print Assumptions C17j_value_parser_consumes.

(** bytes -> JSON value: whatever double the floating-point reader [rnd] returns for the
    non-integer literals, reading ends in a value or an ordinary error *)
Theorem C17j_value_view_total : forall rnd (s : bytes), graceful (json_of_text rnd s).
Proof. exact json_of_text_total. Qed.
Print Assumptions C17j_value_view_total.

(** bytes -> transaction: the pipeline ends in a transaction or an ordinary error *)
Theorem C17j_transaction_text_total : forall rnd (s : bytes),
  graceful (bind (json_of_text rnd s) tx_of_json).
Proof.
  intros rnd s. apply graceful_bind; [apply json_of_text_total|]. intros j _. apply C06.C06_total.
Qed.
Print Assumptions C17j_transaction_text_total.

(** bytes -> typed data: the three digests or an ordinary error, for every byte string *)
Theorem C17j_typed_data_text_total : forall rnd (s : bytes),
  graceful (bind (json_of_text rnd s) (compute_p real_prims)).
Proof.
  intros rnd s. apply graceful_bind; [apply json_of_text_total|]. intros j _.
  exact (proj2 (proj2 C17.C17_total_typed_data) j).
Qed.
Print Assumptions C17j_typed_data_text_total.

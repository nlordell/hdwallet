(** C13 at transaction level — equal integers in different spellings give identical
    encodings; a refused member refuses the document.
    The proofs are lemmas of [Proofs/TxParseProofs.v] or a few steps from them.
    (The field-level theorems are in [Props/C13.v]; [C06_fields_from_json] and [C06_num_field]
    tie each transaction field to them.) *)
From Coq Require Import String.
From Coq Require Import List NArith ZArith Bool.
From HDW Require Import Lib.Outcome Lib.Bytes Lib.Hex Lib.Decimal Model.Json Model.Num Model.Rlp
  Model.SigText Model.Tx Spec.RlpSpec Spec.TxSpec.
From HDW Require Proofs.TxParseProofs.
Import ListNotations.
Open Scope N_scope.

(** Two documents that select the same kind and whose members parse, field by field, to the
    same results ([same_fields]: e.g. the same integer in different spellings) give the same
    transaction (or are both refused), hence identical encodings and digests. *)
Theorem C13_tx_same_encoding : forall kvs1 kvs2,
  same_fields kvs1 kvs2 -> tx_of_json (JObj kvs1) = tx_of_json (JObj kvs2).
Proof. exact TxParseProofs.same_fields_same_tx. Qed.
Print Assumptions C13_tx_same_encoding.

(** If a member that the selected kind reads is missing (when required) or refused by its
    field-level parser ([field_rejected]), the document is refused with an error. *)
Theorem C13_tx_reject_field : forall kvs, field_rejected kvs -> tx_of_json (JObj kvs) = Err.
Proof. exact TxParseProofs.reject_field. Qed.
Print Assumptions C13_tx_reject_field.

(** special cases: a numeric member refused by [permissive_u256] (negative, fractional, not
    below 2^256, empty, not a number: [Props/C13.v]) ... *)
Theorem C13_tx_reject_numeric : forall kvs k j,
  In k (numeric_keys (kind_of_keys kvs)) -> obj_get k kvs = Some j -> permissive_u256 j = Err ->
  tx_of_json (JObj kvs) = Err.
Proof.
  intros kvs k j Hin Hget Hrej. apply (TxParseProofs.reject_num kvs k Hin). intros j' Hj'. congruence.
Qed.
Print Assumptions C13_tx_reject_numeric.

(** ... or missing (nothing is defaulted) ... *)
Theorem C13_tx_reject_missing : forall kvs k,
  In k (numeric_keys (kind_of_keys kvs)) -> obj_get k kvs = None -> tx_of_json (JObj kvs) = Err.
Proof.
  intros kvs k Hin Hget. apply (TxParseProofs.reject_num kvs k Hin). intros j Hj. congruence.
Qed.
Print Assumptions C13_tx_reject_missing.

(** ... bad calldata, a bad recipient. *)
Theorem C13_tx_reject_data : forall kvs j,
  obj_get k_data kvs = Some j -> bytes_field j = Err -> tx_of_json (JObj kvs) = Err.
Proof.
  intros kvs j Hget Hrej. assert (Hno : forall v, data_field kvs <> Ok v).
  { intros v Hv. apply TxParseProofs.data_field_iff in Hv as (j' & Hj' & Hv). congruence. }
  apply TxParseProofs.reject_field. unfold field_rejected. auto.
Qed.
Print Assumptions C13_tx_reject_data.

Theorem C13_tx_reject_to : forall kvs j,
  obj_get k_to kvs = Some j -> j <> JNull -> address_field j = Err -> tx_of_json (JObj kvs) = Err.
Proof.
  intros kvs j Hget Hn Hrej. assert (Hno : forall v, to_field kvs <> Ok v).
  { intros v Hv. unfold to_field in Hv. rewrite Hget in Hv. unfold opt_address_field in Hv.
    destruct j; try congruence; rewrite Hrej in Hv; discriminate. }
  apply TxParseProofs.reject_field. unfold field_rejected. auto.
Qed.
Print Assumptions C13_tx_reject_to.

(** ** Examples: one transaction, four spellings of each number *)

Definition ex_doc (nonce gas value : json) : json :=
  JObj [(k_nonce, nonce); (k_gas_price, JStr (s2l "0x0")); (k_gas, gas); (k_value, value);
        (k_data, JStr (s2l "0xC0ffEE")); (k_chain_id, JStr (s2l "0o1"))].

Example C13_tx_ex_spellings :
  let d1 := ex_doc (JU64 255) (JU64 21000) (JU64 1024) in
  let d2 := ex_doc (JStr (s2l "0xff")) (JStr (s2l "21000")) (JF64 1 10) in
  let d3 := ex_doc (JStr (s2l "0xFF")) (JF64 2625 3) (JStr (s2l "+0b10000000000")) in
  let d4 := ex_doc (JF64 255 0) (JStr (s2l "0x5208")) (JStr (s2l "0x00400")) in
  is_ok (tx_of_json d1) = true
  /\ tx_of_json d1 = tx_of_json d2 /\ tx_of_json d1 = tx_of_json d3 /\ tx_of_json d1 = tx_of_json d4.
Proof. vm_compute. repeat split; reflexivity. Qed.

Example C13_tx_ex_rejects :
  tx_of_json (ex_doc (JI64 (-1)) (JU64 21000) (JU64 0)) = Err
  /\ tx_of_json (ex_doc (JF64 3 (-1)) (JU64 21000) (JU64 0)) = Err
  /\ tx_of_json (ex_doc (JU64 0) (JStr (decimal (2 ^ 256))) (JU64 0)) = Err
  /\ tx_of_json (ex_doc (JU64 0) (JU64 21000) (JStr [])) = Err
  /\ tx_of_json (ex_doc (JU64 0) (JU64 21000) JNull) = Err
  /\ is_ok (tx_of_json (ex_doc (JU64 0) (JStr (decimal (2 ^ 256 - 1))) (JU64 0))) = true.
Proof. vm_compute. repeat split; reflexivity. Qed.

(** C03 — Derived keys equal BIP-32 CKDpriv along the whole path.
    Statements only; every proof is a lemma of [Proofs/Bip32Proofs.v] or a few lines from one.

    [derive] (Model/Bip32.v) is the model of [hdk::derive] + [PrivateKey::secret];
    [bip32] (Spec/Bip32Spec.v) is BIP-32 (master key generation, then CKDpriv per index);
    [bip32_strict] is [bip32] with the one extra invalidity rule the code has (a child whose
    parse256(IL) is 0 is refused).  Every statement holds for every [hmac512] whose output has 64
    bytes and every [pub_compressed] (the primitives are opaque).  [canonical_path p]: every
    component value is below 2^31, which the path parser guarantees.  The statements also cover
    the empty path (the parser never produces it; [p <> []] is not needed). *)
From Coq Require Import String.
From Coq Require Import List NArith Bool.
From HDW Require Import Lib.Outcome Lib.Bytes Model.Path Model.Bip32 Spec.Bip32Spec
  Proofs.Bip32Proofs.
Import ListNotations.
Open Scope N_scope.

(** [value | HARDENED] is BIP-32's i + 2^31. *)
Theorem C03_lor_is_add : forall v, v < 2^31 -> N.lor v (2^31) = v + 2^31.
Proof. exact lor_is_add. Qed.
Print Assumptions C03_lor_is_add.

(** The indices handed to the spec are 32-bit, as BIP-32 requires of CKDpriv. *)
Theorem C03_index_32bit : forall c, comp_value c < 2^31 -> index c < 2^32.
Proof. exact index_lt. Qed.
Print Assumptions C03_index_32bit.

(** [canonical_path] is the [in_range] that C14 proves of every parsed path, and [index] is the
    [bip32_index] of [Model/Path.v] on such paths. *)
Theorem C03_canonical_is_in_range : canonical_path = in_range.
Proof. exact canonical_path_in_range. Qed.
Print Assumptions C03_canonical_is_in_range.

Theorem C03_index_is_bip32_index : forall c, comp_value c < 2^31 -> bip32_index c = index c.
Proof. intros [v|v] H; [exact (lor_is_add v H)|reflexivity]. Qed.
Print Assumptions C03_index_is_bip32_index.

(** Derivation is BIP-32 with the extra "IL = 0 is invalid" rule: same key, or an error exactly
    when that derivation is invalid. *)
Theorem C03_refines :
  forall (hmac512 : bytes -> bytes -> bytes) (pub_compressed : N -> bytes),
  (forall k m, length (hmac512 k m) = 64%nat) ->
  forall seed p, canonical_path p ->
    derive hmac512 pub_compressed seed p =
    match bip32_strict hmac512 pub_compressed seed (map index p) with
    | Some k => Ok k
    | None => Err
    end.
Proof. exact refines. Qed.
Print Assumptions C03_refines.

(** How [bip32_strict] and [bip32] are related: the strict one only ever refuses more ... *)
Theorem C03_strict_implies_bip32 :
  forall (hmac512 : bytes -> bytes -> bytes) (pub_compressed : N -> bytes) seed is k,
    bip32_strict hmac512 pub_compressed seed is = Some k ->
    bip32 hmac512 pub_compressed seed is = Some k.
Proof. exact bip32_strict_some. Qed.
Print Assumptions C03_strict_implies_bip32.

(** ... and it refuses more only when some parse256(IL) along the path is 0 (probability 2^-256
    per step for a pseudo-random HMAC). *)
Theorem C03_bip32_implies_strict_or_zero_IL :
  forall (hmac512 : bytes -> bytes -> bytes) (pub_compressed : N -> bytes) seed is k,
    bip32 hmac512 pub_compressed seed is = Some k ->
    bip32_strict hmac512 pub_compressed seed is = Some k
    \/ zero_IL_along hmac512 pub_compressed seed is.
Proof. exact bip32_some_strict. Qed.
Print Assumptions C03_bip32_implies_strict_or_zero_IL.

(** Derivation never yields a key other than BIP-32's. *)
Theorem C03_never_other_key :
  forall (hmac512 : bytes -> bytes -> bytes) (pub_compressed : N -> bytes),
  (forall k m, length (hmac512 k m) = 64%nat) ->
  forall seed p k, canonical_path p ->
    derive hmac512 pub_compressed seed p = Ok k ->
    bip32 hmac512 pub_compressed seed (map index p) = Some k.
Proof.
  intros hmac512 pubc Hlen seed p k Hp H. apply bip32_strict_some, to_outcome_ok.
  rewrite <- (refines hmac512 pubc Hlen seed p Hp). exact H.
Qed.
Print Assumptions C03_never_other_key.

(** Whenever BIP-32 yields a key, derivation yields that key, unless some IL on the way is 0. *)
Theorem C03_complete :
  forall (hmac512 : bytes -> bytes -> bytes) (pub_compressed : N -> bytes),
  (forall k m, length (hmac512 k m) = 64%nat) ->
  forall seed p k, canonical_path p ->
    bip32 hmac512 pub_compressed seed (map index p) = Some k ->
    derive hmac512 pub_compressed seed p = Ok k
    \/ zero_IL_along hmac512 pub_compressed seed (map index p).
Proof. exact complete. Qed.
Print Assumptions C03_complete.

(** An error is reported only where (strict) BIP-32 declares the derivation invalid. *)
Theorem C03_errors_are_bip32_invalid :
  forall (hmac512 : bytes -> bytes -> bytes) (pub_compressed : N -> bytes),
  (forall k m, length (hmac512 k m) = 64%nat) ->
  forall seed p, canonical_path p ->
    derive hmac512 pub_compressed seed p = Err ->
    bip32_strict hmac512 pub_compressed seed (map index p) = None.
Proof.
  intros hmac512 pubc Hlen seed p Hp H. apply to_outcome_err.
  rewrite <- (refines hmac512 pubc Hlen seed p Hp). exact H.
Qed.
Print Assumptions C03_errors_are_bip32_invalid.

(** Never a panic (the [..32] slices and [split_at(32)] are in range because HMAC-SHA512 gives
    64 bytes), for every path, canonical or not. *)
Theorem C03_total :
  forall (hmac512 : bytes -> bytes -> bytes) (pub_compressed : N -> bytes),
  (forall k m, length (hmac512 k m) = 64%nat) ->
  forall seed p, graceful (derive hmac512 pub_compressed seed p).
Proof. exact total. Qed.
Print Assumptions C03_total.

(** The key is a valid secp256k1 secret and [PrivateKey::secret()] is its 32-byte big-endian form. *)
Theorem C03_secret_bytes :
  forall (hmac512 : bytes -> bytes -> bytes) (pub_compressed : N -> bytes) seed p k,
    derive hmac512 pub_compressed seed p = Ok k ->
    derive_secret hmac512 pub_compressed seed p = Ok (be_fixed 32 k)
    /\ length (be_fixed 32 k) = 32%nat /\ be_val (be_fixed 32 k) = k.
Proof. exact derive_secret_roundtrip. Qed.
Print Assumptions C03_secret_bytes.

Theorem C03_key_in_range :
  forall (hmac512 : bytes -> bytes -> bytes) (pub_compressed : N -> bytes) seed p k,
    derive hmac512 pub_compressed seed p = Ok k -> 0 < k < secp256k1_n.
Proof. exact derive_range. Qed.
Print Assumptions C03_key_in_range.

(** One loop iteration: the next chain code is the right half of the HMAC keyed with the current
    chain code; the next key is (left half + current key) mod n. *)
Theorem C03_chain_code_carried :
  forall (hmac512 : bytes -> bytes -> bytes) (pub_compressed : N -> bytes),
  (forall k m, length (hmac512 k m) = 64%nat) ->
  forall (ek : bytes) c (ek' : bytes), (32 <= length ek)%nat ->
    derive_step hmac512 pub_compressed ek c = Ok ek' ->
    let k := be_val (firstn 32 ek) in
    let I := hmac512 (skipn 32 ek) (child_data pub_compressed k c) in
    skipn 32 ek' = skipn 32 I
    /\ firstn 32 ek' = be_fixed 32 ((be_val (firstn 32 I) + k) mod secp256k1_n).
Proof. exact chain_code_carried. Qed.
Print Assumptions C03_chain_code_carried.

(** A hardened child hashes 0x00 ‖ parent private key ‖ ser32(v + 2^31) ... *)
Theorem C03_hardened_uses_private :
  forall (hmac512 : bytes -> bytes -> bytes) (pub_compressed : N -> bytes),
  (forall k m, length (hmac512 k m) = 64%nat) ->
  forall seed v k', v < 2^31 ->
    derive hmac512 pub_compressed seed [Hardened v] = Ok k' ->
    let I := hmac512 (s2l "Bitcoin seed") seed in
    let k := be_val (firstn 32 I) in
    let I' := hmac512 (skipn 32 I) ([0] ++ be_fixed 32 k ++ be_fixed 4 (v + 2^31)) in
    k' = (be_val (firstn 32 I') + k) mod secp256k1_n.
Proof.
  intros hmac512 pubc Hlen seed v k' Hv. rewrite <- (lor_is_add v Hv).
  exact (one_step hmac512 pubc Hlen seed (Hardened v) k').
Qed.
Print Assumptions C03_hardened_uses_private.

(** ... a normal child hashes the compressed parent public key ‖ ser32(v). *)
Theorem C03_normal_uses_public :
  forall (hmac512 : bytes -> bytes -> bytes) (pub_compressed : N -> bytes),
  (forall k m, length (hmac512 k m) = 64%nat) ->
  forall seed v k', v < 2^31 ->
    derive hmac512 pub_compressed seed [Normal v] = Ok k' ->
    let I := hmac512 (s2l "Bitcoin seed") seed in
    let k := be_val (firstn 32 I) in
    let I' := hmac512 (skipn 32 I) (pub_compressed k ++ be_fixed 4 v) in
    k' = (be_val (firstn 32 I') + k) mod secp256k1_n.
Proof.
  intros hmac512 pubc Hlen seed v k' _. exact (one_step hmac512 pubc Hlen seed (Normal v) k').
Qed.
Print Assumptions C03_normal_uses_public.

(** Non-vacuity with toy primitives: a constant "HMAC" whose halves are 0x0101..01 < n gives
    master key k = 0x0101..01 and child 2k mod n; a constant 0xFF.. "HMAC" is invalid (>= n). *)
Example C03_example_ok :
  derive (fun _ _ => repeat 1 64) (fun _ => repeat 2 33) [7] [Hardened 0; Normal 5]
  = Ok (3 * be_val (repeat 1 32))
  /\ bip32 (fun _ _ => repeat 1 64) (fun _ => repeat 2 33) [7] [2^31; 5]
     = Some (3 * be_val (repeat 1 32)).
Proof. split; vm_compute; reflexivity. Qed.

Example C03_example_err :
  derive (fun _ _ => repeat 255 64) (fun _ => repeat 2 33) [7] [Hardened 0] = Err
  /\ bip32 (fun _ _ => repeat 255 64) (fun _ => repeat 2 33) [7] [2^31] = None.
Proof. split; vm_compute; reflexivity. Qed.

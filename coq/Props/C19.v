(** C19 — Hex encode and decode are inverse; decoding is lenient only about layout.
    The statements, each derived in a few lines from [Proofs/HexCliProofs.v]. *)
From Coq Require Import String.
From Coq Require Import List NArith Bool PeanoNat.
From HDW Require Import Lib.Outcome Lib.Bytes Lib.Hex Model.HexCli Proofs.HexCliProofs.
Import ListNotations.
Open Scope N_scope.

(** decode (encode b) = b, for every byte string. *)
Theorem C19_roundtrip : forall b, bytes_ok b -> hex_decode_cmd (hex_encode_cmd b) = Ok b.
Proof. exact roundtrip. Qed.
Print Assumptions C19_roundtrip.

(** encode prints 0x, two lower-case digits per byte (which decode to b), newline. *)
Theorem C19_format : forall b, bytes_ok b ->
  exists ds, hex_encode_cmd b = [48; 120] ++ ds ++ [10]
    /\ length ds = (2 * length b)%nat
    /\ forallb lower_hex_char ds = true
    /\ hex_decode ds = Some b.
Proof. exact format. Qed.
Print Assumptions C19_format.

(** Every spelling (white space anywhere, either digit case, optional 0x) gives the same bytes. *)
Theorem C19_lenient : forall b t, bytes_ok b -> spelling_of b t -> permissive_hex t = Ok b.
Proof. exact permissive_hex_complete. Qed.
Print Assumptions C19_lenient.

(** Only spellings are accepted ... *)
Theorem C19_sound : forall b t, permissive_hex t = Ok b -> bytes_ok b /\ spelling_of b t.
Proof. exact permissive_hex_sound. Qed.
Print Assumptions C19_sound.

(** ... everything else is an ordinary error (no output is produced under [Err]). *)
Theorem C19_reject : forall t, (~ exists b, bytes_ok b /\ spelling_of b t) -> permissive_hex t = Err.
Proof. exact reject. Qed.
Print Assumptions C19_reject.

Theorem C19_reject_odd : forall t,
  all_ascii (body t) -> Nat.odd (length (body t)) = true -> permissive_hex t = Err.
Proof.
  intros t Ha Ho. rewrite permissive_hex_body, utf8_ascii, hex_decode_odd by assumption. reflexivity.
Qed.
Print Assumptions C19_reject_odd.

Theorem C19_reject_nonhex : forall t, forallb is_hex (body t) = false -> permissive_hex t = Err.
Proof.
  intros t Hn. rewrite permissive_hex_body. destruct (hex_decode (utf8 (body t))) as [b|] eqn:Hd; [exfalso|reflexivity].
  rewrite (hex_decode_utf8 _ _ Hd) in Hd. apply hex_decode_all_hex in Hd. congruence.
Qed.
Print Assumptions C19_reject_nonhex.

Theorem C19_total : forall t, graceful (permissive_hex t).
Proof. exact total. Qed.
Print Assumptions C19_total.

(** Non-vacuity: a concrete layout with white space inside the prefix, mixed case. *)
Example C19_example :
  spelling_of [222; 173] (s2l " 0 x" ++ [9] ++ s2l "dE" ++ [10; 0x3000] ++ s2l "Ad ")
  /\ permissive_hex (s2l " 0 x" ++ [9] ++ s2l "dE" ++ [10; 0x3000] ++ s2l "Ad ") = Ok [222; 173].
Proof. split; [exists (s2l "dEAd"); split; [right|]; reflexivity | reflexivity]. Qed.

(** C09 — Typed data that does not conform to its declared types is refused.
    The proofs rest on [Proofs/Eip712ValueProofs.v].

    [P : prims] bundles the primitives the model is parametric in (Keccak-256, the type hash,
    the leaf deserialisers of [Model/Num.v]); [encode_value_p P], [struct_hash_p P], [compute_p P]
    are the model functions of [Model/Eip712Values.v] at these primitives.  Assumptions, where a
    statement needs them, are the named bundles of [Spec/Eip712ValueSpec.v]:
    [prims_ranged] (a [U256] is below 2^256, an [I256] in [-2^255, 2^255)),
    [prims_sized] (digests are 32 bytes, addresses 20), [prims_total] (the primitives return a
    value or an ordinary error). *)
From Coq Require Import String.
From Coq Require Import List NArith ZArith Bool Lia Permutation.
From HDW Require Import Lib.Outcome Lib.Bytes Model.Json Model.Eip712Kind Model.Domain Model.Eip712Values.
From HDW Require Import Spec.Eip712ValueSpec Proofs.Eip712ValueProofs.
Import ListNotations.
Open Scope N_scope.

(** uintN: an accepted value lies in [0 <= v < 2^N] and the word is its 32-byte big-endian form
    (out-of-range values are refused: [C09_uint_reject]). *)
Theorem C09_uint_range : forall P tys n j w,
  prims_ranged P -> encode_value_p P tys (KUint n) j = Ok w ->
  exists v, p_u256 P j = Ok v /\ v < 2 ^ n /\ w = be_fixed 32 v.
Proof.
  intros P tys n j w R H. rewrite encode_value_eq in H.
  exact (enc_uint_ok _ n j w (num_u256_range P R j) H).
Qed.
Print Assumptions C09_uint_range.

Theorem C09_uint_reject : forall P tys n j v,
  prims_ranged P -> p_u256 P j = Ok v -> 2 ^ n <= v -> encode_value_p P tys (KUint n) j = Err.
Proof.
  intros P tys n j v R Hv Hge. rewrite encode_value_eq.
  destruct (enc_uint_cases _ n j v Hv (num_u256_range P R j v Hv)) as [[Hlt _]|[_ E]]; [lia|exact E].
Qed.
Print Assumptions C09_uint_reject.

(** uintN refuses whatever the leaf parser [p_u256] refuses (for the real one,
    [Model/Num.v: permissive_u256], that includes every negative number: [Props/C13.v]). *)
Theorem C09_uint_negative : forall P tys n j,
  p_u256 P j = Err -> encode_value_p P tys (KUint n) j = Err.
Proof. intros P tys n j. exact (encode_value_err P tys (KUint n) j). Qed.
Print Assumptions C09_uint_negative.

(** intN: an accepted value lies in [-2^(N-1) <= z < 2^(N-1)] and the word is its two's complement
    (out-of-range values are refused: [C09_int_reject]). *)
Theorem C09_int_range : forall P tys n j w,
  prims_ranged P -> 1 <= n -> encode_value_p P tys (KInt n) j = Ok w ->
  exists z, p_i256 P j = Ok z /\ (- 2 ^ Z.of_N (n - 1) <= z < 2 ^ Z.of_N (n - 1))%Z /\
            w = be_fixed 32 (Z.to_N (z mod 2 ^ 256)).
Proof.
  intros P tys n j w R _ H. rewrite encode_value_eq in H.
  apply (enc_int_ok _ n j w (num_i256_range P R j)) in H as (z & Hz & [_ Hr] & ->). eauto.
Qed.
Print Assumptions C09_int_range.

Theorem C09_int_reject : forall P tys n j z,
  prims_ranged P -> 1 <= n -> p_i256 P j = Ok z ->
  (z < - 2 ^ Z.of_N (n - 1) \/ 2 ^ Z.of_N (n - 1) <= z)%Z ->
  encode_value_p P tys (KInt n) j = Err.
Proof.
  intros P tys n j z R Hn Hz Hout. rewrite encode_value_eq.
  destruct (enc_int_cases _ n j z Hz (num_i256_range P R j z Hz)) as [[[_ Hr] _]|[_ E]]; [lia|exact E].
Qed.
Print Assumptions C09_int_reject.

(** bytesN: exactly N bytes (N at most 32), right-padded with zeros; never truncated. *)
Theorem C09_bytesN_length : forall P tys n j w,
  encode_value_p P tys (KBytes (Some n)) j = Ok w ->
  exists b, p_bytes P j = Ok b /\ N.of_nat (length b) = n /\ n <= 32 /\
            w = b ++ repeat 0 (32 - N.to_nat n)%nat.
Proof.
  intros P tys n j w H. rewrite encode_value_eq in H.
  apply enc_bytesN_ok in H as (b & Hb & <- & Hle & ->). rewrite Nat2N.id. eauto.
Qed.
Print Assumptions C09_bytesN_length.

Theorem C09_bytesN_reject : forall P tys n j b,
  p_bytes P j = Ok b -> N.of_nat (length b) <> n -> encode_value_p P tys (KBytes (Some n)) j = Err.
Proof.
  intros P tys n j b Hb Hn. rewrite encode_value_eq.
  destruct (enc_bytesN_cases (p_keccak P) _ n j b Hb) as [[[Hn' _] _]|[_ E]]; [contradiction|exact E].
Qed.
Print Assumptions C09_bytesN_reject.

(** fixed-size arrays *)
Theorem C09_fixed_array_length : forall P tys k n l w,
  encode_value_p P tys (KArray k (Some n)) (JArr l) = Ok w -> N.of_nat (length l) = n.
Proof.
  intros P tys k n l w H. destruct (N.eq_dec (N.of_nat (length l)) n) as [E|E]; [exact E|].
  rewrite (array_size_reject P tys k n l E) in H. discriminate.
Qed.
Print Assumptions C09_fixed_array_length.

Theorem C09_fixed_array_reject : forall P tys k n l,
  N.of_nat (length l) <> n -> encode_value_p P tys (KArray k (Some n)) (JArr l) = Err.
Proof. exact array_size_reject. Qed.
Print Assumptions C09_fixed_array_reject.

(** a declared member is absent from the object *)
Theorem C09_missing_member : forall P tys name ms obj m,
  prims_sized P -> prims_total P ->
  types_get name tys = Some ms -> In m ms -> obj_get (m_name m) obj = None ->
  struct_hash_p P tys name obj = Err.
Proof.
  intros P tys name ms obj m S T Ht Hin Hnone. apply (struct_hash_keys P S T tys name ms obj Ht).
  intros Hp. apply obj_get_none in Hnone.
  exact (Hnone (Permutation_in _ (Permutation_sym Hp) (in_map m_name _ _ Hin))).
Qed.
Print Assumptions C09_missing_member.

(** the object has a key that is not a declared member *)
Theorem C09_extra_member : forall P tys name ms obj key,
  prims_sized P -> prims_total P ->
  types_get name tys = Some ms -> In key (map fst obj) -> ~ In key (map m_name ms) ->
  struct_hash_p P tys name obj = Err.
Proof.
  intros P tys name ms obj key S T Ht Hin Hnot. apply (struct_hash_keys P S T tys name ms obj Ht).
  intros Hp. exact (Hnot (Permutation_in _ Hp Hin)).
Qed.
Print Assumptions C09_extra_member.

(** a reference to an undefined struct type ... *)
Theorem C09_undefined_struct : forall P tys name,
  types_get name tys = None ->
  (forall obj, struct_hash_p P tys name obj = Err) /\
  (forall j, encode_value_p P tys (KStruct name) j = Err).
Proof. intros P tys name H. exact (struct_hash_no_type P tys name (or_introl H)). Qed.
Print Assumptions C09_undefined_struct.

(** ... also when it is only referred to by the type of a member (then the type hash of the
    enclosing struct is an error), even if no value needs it (e.g. an empty array of it). *)
Theorem C09_unresolved_dependency : forall P tys name,
  p_type_hash P tys name = Err ->
  (forall obj, struct_hash_p P tys name obj = Err) /\
  (forall j, encode_value_p P tys (KStruct name) j = Err).
Proof. intros P tys name H. exact (struct_hash_no_type P tys name (or_intror H)). Qed.
Print Assumptions C09_unresolved_dependency.

(** a JSON value of the wrong kind: [bool] needs [true]/[false], [string] a string, a struct an
    object, an array an array; numbers, byte strings and addresses: whatever the leaf
    deserialiser refuses (C13 / [Model/Num.v] say what that is). *)
Theorem C09_wrong_kind : forall P tys j,
  ((forall b, j <> JBool b) -> encode_value_p P tys KBool j = Err) /\
  ((forall s, j <> JStr s) -> encode_value_p P tys KString j = Err) /\
  (forall name, (forall kvs, j <> JObj kvs) -> encode_value_p P tys (KStruct name) j = Err) /\
  (forall k s, (forall l, j <> JArr l) -> encode_value_p P tys (KArray k s) j = Err) /\
  (forall n, p_u256 P j = Err -> encode_value_p P tys (KUint n) j = Err) /\
  (forall n, p_i256 P j = Err -> encode_value_p P tys (KInt n) j = Err) /\
  (forall n, p_bytes P j = Err -> encode_value_p P tys (KBytes n) j = Err) /\
  (p_addr P j = Err -> encode_value_p P tys KAddress j = Err).
Proof. intros P tys j. repeat split; intros; apply encode_value_err; assumption. Qed.
Print Assumptions C09_wrong_kind.

(** the rejection propagates from any position: any element of an array ... *)
Theorem C09_position_independent_array : forall P tys k s l x,
  prims_sized P -> prims_total P ->
  In x l -> encode_value_p P tys k x = Err -> encode_value_p P tys (KArray k s) (JArr l) = Err.
Proof. intros P tys k s l x S T. exact (array_element_err P S T tys k s l x). Qed.
Print Assumptions C09_position_independent_array.

(** ... and the value of any member of a struct (objects have distinct keys, [Model/Json.v]);
    by induction, from any depth. *)
Theorem C09_position_independent_member : forall P tys name ms obj m x,
  prims_sized P -> prims_total P ->
  NoDup (map fst obj) -> types_get name tys = Some ms -> In m ms ->
  obj_get (m_name m) obj = Some x -> encode_value_p P tys (m_kind m) x = Err ->
  struct_hash_p P tys name obj = Err /\ encode_value_p P tys (KStruct name) (JObj obj) = Err.
Proof. intros P tys name ms obj m x S T. exact (struct_hash_member_err P S T tys name ms obj m x). Qed.
Print Assumptions C09_position_independent_member.

(** an error is not also a digest: [Err] and [Ok] exclude each other (true of any function) *)
Theorem C09_nothing_hashed : forall P j, compute_p P j = Err -> ~ exists r, compute_p P j = Ok r.
Proof. intros P j H [r Hr]. rewrite H in Hr. discriminate. Qed.
Print Assumptions C09_nothing_hashed.

(** no panic (none of the slice operations can fail) and no fuel: every outcome is a result or
    an ordinary error *)
Theorem C09_total : forall P,
  prims_sized P -> prims_total P ->
  (forall tys k j, graceful (encode_value_p P tys k j)) /\
  (forall tys name obj, graceful (struct_hash_p P tys name obj)) /\
  (forall j, graceful (compute_p P j)).
Proof.
  intros P S T.
  exact (conj (encode_value_graceful P S T) (conj (struct_hash_graceful P S T) (compute_graceful P S T))).
Qed.
Print Assumptions C09_total.

(** C08 (type half) — the [encodeType] string computed by [Types::encode_type] is the one EIP-712
    defines: the primary type first, then all transitively referenced struct types exactly once
    each in name order, the primary type never repeated (also for self- and mutually recursive
    types); an error exactly when a type that matters is undefined; never a panic, and the
    work-list terminates within the fuel formula for every type graph.
    Statements; the proofs are in [Proofs/] or a few lines here.
    (The value half — [encode_value], [struct_hash], the digests — is in [Props/C08v.v].) *)
From Coq Require Import String.
From Coq Require Import List NArith Bool Sorted Permutation.
From HDW Require Import Lib.Outcome Lib.Bytes Prim.Keccak.
From HDW Require Import Model.Eip712Kind Model.Domain Model.Eip712Types Spec.Eip712TypeSpec.
From HDW Require Import Proofs.TextOrder Proofs.Eip712TypeProofs Proofs.Utf8Order.
Import ListNotations.
Open Scope N_scope.

(** * The main theorem *)

(** If the primary type and every type it transitively references are defined, the result is
    the specified string for the (unique, see [C08_deps_unique]) list [l] of dependencies.
    No distinctness hypothesis on the keys of [tys] is needed: model and specification both
    read the table through [types_get]. *)
Theorem C08_encode_type : forall tys P,
  all_defined tys P ->
  exists l, deps_spec tys P l /\ encode_type tys P = Ok (encode_type_spec tys P l).
Proof.
  intros tys P Hd. destruct (encode_type_cases tys P) as [[_ H]|[(T & HT & Hn) _]]; [exact H|].
  destruct (Hd T HT Hn).
Qed.
Print Assumptions C08_encode_type.

(** [deps_spec] determines the list: two strictly sorted lists with the same elements are equal. *)
Theorem C08_deps_unique : forall tys P l1 l2,
  deps_spec tys P l1 -> deps_spec tys P l2 -> l1 = l2.
Proof. exact deps_unique. Qed.
Print Assumptions C08_deps_unique.

(** Conversely every successful result is the specified string, and then all types are defined. *)
Theorem C08_encode_type_sound : forall tys P s,
  encode_type tys P = Ok s ->
  all_defined tys P /\ exists l, deps_spec tys P l /\ s = encode_type_spec tys P l.
Proof.
  intros tys P s Hs. destruct (encode_type_cases tys P) as [[Hd (l & Hl & H)]|[_ H]]; [|congruence].
  split; [exact Hd|]. exists l. split; [exact Hl|congruence].
Qed.
Print Assumptions C08_encode_type_sound.

(** An undefined primary or (transitively) referenced type gives an ordinary error ... *)
Theorem C08_encode_type_undefined : forall tys P,
  (exists T, (T = P \/ reachp tys P T) /\ types_get T tys = None) -> encode_type tys P = Err.
Proof.
  intros tys P (T & HT & Hn). destruct (encode_type_cases tys P) as [[Hd _]|[_ H]]; [|exact H].
  destruct (Hd T HT Hn).
Qed.
Print Assumptions C08_encode_type_undefined.

(** ... and nothing else does. *)
Theorem C08_encode_type_err_iff : forall tys P,
  encode_type tys P = Err <->
  exists T, (T = P \/ reachp tys P T) /\ types_get T tys = None.
Proof.
  intros tys P. split; [|apply C08_encode_type_undefined].
  intros He. destruct (encode_type_cases tys P) as [[_ (l & _ & H)]|[Hu _]]; [congruence|exact Hu].
Qed.
Print Assumptions C08_encode_type_err_iff.

(** The primary type is not repeated; every dependency occurs exactly once; every reachable
    type is listed. *)
Theorem C08_primary_once : forall tys P l, deps_spec tys P l -> ~ In P l.
Proof. intros tys P l [_ E] Hin. apply E in Hin as [_ H]. exact (H eq_refl). Qed.
Print Assumptions C08_primary_once.

Theorem C08_each_once : forall tys P l, deps_spec tys P l -> NoDup l.
Proof. intros tys P l [S _]. exact (sorted_nodup l S). Qed.
Print Assumptions C08_each_once.

Theorem C08_deps_complete : forall tys P l T,
  deps_spec tys P l -> reachp tys P T -> T = P \/ In T l.
Proof.
  intros tys P l T [_ E] HT. destruct (list_eq_dec N.eq_dec T P) as [->|Hne]; [left; reflexivity|].
  right. apply E. split; assumption.
Qed.
Print Assumptions C08_deps_complete.

(** Total: a result or an ordinary error for every type table and primary type, in particular
    never [OutOfFuel]: the fuel [1 + |refs P| + sum_T |refs T|] suffices for every type graph,
    including self- and mutually recursive ones (this is the termination argument). *)
Theorem C08_encode_type_total : forall tys P, graceful (encode_type tys P).
Proof. exact encode_type_total. Qed.
Print Assumptions C08_encode_type_total.

Theorem C08_loop_fuel_enough : forall tys P ms,
  encode_type_loop (encode_type_fuel tys ms) tys P (rev (struct_references ms)) [] <> OutOfFuel.
Proof. exact encode_type_loop_fuel_enough. Qed.
Print Assumptions C08_loop_fuel_enough.

(** [type_hash] is Keccak-256 of the UTF-8 bytes of the specified string, and total.
    ([Print Assumptions] lists the [Uint63] kernel primitives used by [keccak256].) *)
Theorem C08_type_hash : forall tys P,
  all_defined tys P ->
  exists l, deps_spec tys P l /\
            type_hash tys P = Ok (keccak256 (utf8 (encode_type_spec tys P l))).
Proof.
  intros tys P Hd. destruct (C08_encode_type tys P Hd) as (l & Hl & He).
  exists l. split; [exact Hl|]. unfold type_hash. rewrite He. reflexivity.
Qed.
Print Assumptions C08_type_hash.

Theorem C08_type_hash_total : forall tys P, graceful (type_hash tys P).
Proof. exact type_hash_total. Qed.
Print Assumptions C08_type_hash_total.

(** The list of dependencies does not depend on the order of the members inside the types
    (only the per-type strings [display_typedef] do). *)
Theorem C08_order_independent : forall tys1 tys2 P l,
  (forall T, Permutation (def tys1 T) (def tys2 T)) ->
  deps_spec tys1 P l -> deps_spec tys2 P l.
Proof.
  intros tys1 tys2 P l Hp [S E]. split; [exact S|]. intros T.
  rewrite E, (reachp_perm tys1 tys2 P Hp T). reflexivity.
Qed.
Print Assumptions C08_order_independent.

(** * The model's key order is Rust's [str] order *)

(** The executable order is the lexicographic order on code points ... *)
Theorem C08_text_ltb_spec : forall a b, text_ltb a b = true <-> text_lt a b.
Proof. exact text_ltb_spec. Qed.
Print Assumptions C08_text_ltb_spec.

(** ... which, for Unicode scalar values (below 0x110000), is the lexicographic order of the
    UTF-8 bytes, i.e. [Ord for str], the key order of [BTreeMap<&str, _>]. *)
Theorem C08_text_order_is_byte_order : forall a b,
  Forall (fun c => c < 0x110000) a -> Forall (fun c => c < 0x110000) b ->
  (text_lt a b <-> bytes_lt (utf8 a) (utf8 b)).
Proof. exact text_lt_utf8. Qed.
Print Assumptions C08_text_order_is_byte_order.

(** * Regression examples (the witnesses of the defect in the pinned code, D12) *)

Local Open Scope string_scope.

Definition mk_types (tys : list (string * list (string * string))) : typesmap :=
  map (fun '(n, ms) =>
         (s2l n, map (fun '(mn, mt) => {| m_name := s2l mn; m_kind := kind_of_string (s2l mt) |}) ms))
      tys.

Definition person := ("Person", [("name", "string"); ("wallet", "address")]).
Definition asset := ("Asset", [("token", "address"); ("amount", "uint256")]).

(** the repeated dependency listed last: [Asset] must not be dropped *)
Example C08_ex_asset_first :
  encode_type
    (mk_types [("Transaction", [("tx", "Asset"); ("from", "Person"); ("to", "Person")]); person; asset])
    (s2l "Transaction")
  = Ok (s2l ("Transaction(Asset tx,Person from,Person to)"
             ++ "Asset(address token,uint256 amount)Person(string name,address wallet)")).
Proof. vm_compute. reflexivity. Qed.

(** the repeated dependency listed first (the order of the repository's own fixture) *)
Example C08_ex_asset_last :
  encode_type
    (mk_types [("Transaction", [("from", "Person"); ("to", "Person"); ("tx", "Asset")]); person; asset])
    (s2l "Transaction")
  = Ok (s2l ("Transaction(Person from,Person to,Asset tx)"
             ++ "Asset(address token,uint256 amount)Person(string name,address wallet)")).
Proof. vm_compute. reflexivity. Qed.

(** a self-referential type is not repeated *)
Example C08_ex_self :
  encode_type (mk_types [("Foo", [("children", "Foo[]")])]) (s2l "Foo")
  = Ok (s2l "Foo(Foo[] children)").
Proof. vm_compute. reflexivity. Qed.

(** mutual recursion, from either end *)
Example C08_ex_mutual_A :
  encode_type (mk_types [("A", [("b", "B[]"); ("n", "uint8")]); ("B", [("a", "A[2][]")])]) (s2l "A")
  = Ok (s2l "A(B[] b,uint8 n)B(A[2][] a)").
Proof. vm_compute. reflexivity. Qed.

Example C08_ex_mutual_B :
  encode_type (mk_types [("A", [("b", "B[]"); ("n", "uint8")]); ("B", [("a", "A[2][]")])]) (s2l "B")
  = Ok (s2l "B(A[2][] a)A(B[] b,uint8 n)").
Proof. vm_compute. reflexivity. Qed.

(** the EIP-712 reference example *)
Example C08_ex_mail :
  encode_type
    (mk_types [("Mail", [("from", "Person"); ("to", "Person"); ("contents", "string")]); person])
    (s2l "Mail")
  = Ok (s2l "Mail(Person from,Person to,string contents)Person(string name,address wallet)").
Proof. vm_compute. reflexivity. Qed.

(** a diamond with a cycle back to the primary type, dependencies in name order not in
    discovery order; an empty struct *)
Example C08_ex_diamond :
  encode_type
    (mk_types [("Top", [("l", "Zed"); ("r", "Mid[3]")]); ("Zed", [("b", "Bot")]);
               ("Mid", [("b", "Bot[]"); ("t", "Top[]")]); ("Bot", [])])
    (s2l "Top")
  = Ok (s2l "Top(Zed l,Mid[3] r)Bot()Mid(Bot[] b,Top[] t)Zed(Bot b)").
Proof. vm_compute. reflexivity. Qed.

(** an undefined dependency is an error; so is an undefined primary type *)
Example C08_ex_undefined :
  encode_type (mk_types [("Mail", [("from", "Person")])]) (s2l "Mail") = Err /\
  encode_type (mk_types [person]) (s2l "Mail") = Err.
Proof. vm_compute. split; reflexivity. Qed.

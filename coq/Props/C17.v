(** C17 — No input makes the tool panic, abort or hang (partial: the compiled binary's stack and
    wall-clock behaviour are exercised by the check, not modelled).

    Every model function returns [outcome]; every [unwrap]/index/slice/overflow-checked site of
    hdwallet's own code is an explicit [Panic] branch and every non-structural loop runs on fuel
    ([OutOfFuel]).  The theorems below state, parser by parser, that neither is reachable
    ([graceful x := x <> Panic /\ x <> OutOfFuel]).  Most are the totality theorem
    proved with the corresponding property, restated here. *)
From Coq Require Import String.
From Coq Require Import List NArith ZArith Bool.
From HDW Require Import Lib.Outcome Lib.Bytes Model.Json.
From HDW Require Import Model.Bip39 Spec.Bip39Spec Model.Path Model.SigText Model.Account Model.Bip32 Model.Tx Spec.TxSpec
  Model.Eip712Kind Model.Domain Model.Eip712Types Model.Eip712Values Spec.Eip712ValueSpec Model.HexCli Model.Prefix Model.Num Model.Rlp
  Model.Entropy.
From HDW Require Import Props.C01 Props.C03 Props.C04 Props.C06 Props.C07 Props.C08 Props.C09 Props.C11 Props.C13 Props.C14 Props.C15
  Props.C18 Props.C19 Props.C20 Proofs.Eip712ValueInst.
Import ListNotations.
Open Scope N_scope.

(** mnemonic phrases *)
Theorem C17_total_from_phrase : forall sha256 : bytes -> bytes,
  (forall x, length (sha256 x) = 32%nat) -> (forall x, bytes_ok (sha256 x)) -> forall t, graceful (from_phrase sha256 t).
Proof. exact C01_total. Qed.
Print Assumptions C17_total_from_phrase.

Theorem C17_total_to_phrase : forall sha256 : bytes -> bytes,
  (forall x, length (sha256 x) = 32%nat) -> (forall x, bytes_ok (sha256 x)) ->
  forall ent, bytes_ok ent -> valid_ent_len (length ent) -> graceful (to_phrase (mk_mnemonic sha256 ent)).
Proof. exact C01_total_print. Qed.
Print Assumptions C17_total_to_phrase.

(** generation lengths and the entropy source: whatever the OS answers, [random] is an [Ok] or an [Err] *)
Theorem C17_total_random : forall (sha256 : bytes -> bytes) L r rest reqs,
  graceful (fst (random sha256 L {| pending := r :: rest; requests := reqs |})).
Proof.
  intros sha256 L r rest reqs. unfold random, byte_len.
  destruct (_ || _); [|apply graceful_err].
  unfold get_entropy. cbn [pending]. destruct r; [apply graceful_ok|apply graceful_err].
Qed.
Print Assumptions C17_total_random.

(** HD paths and account indices *)
Theorem C17_total_parse_path : forall s, graceful (parse_path s).
Proof. exact C14_total. Qed.
Print Assumptions C17_total_parse_path.

Theorem C17_total_for_index : forall i, graceful (for_index i).
Proof. exact C14_total_for_index. Qed.
Print Assumptions C17_total_for_index.

(** signatures *)
Theorem C17_total_parse_sig : forall t, graceful (parse_sig t).
Proof. exact C15_total. Qed.
Print Assumptions C17_total_parse_sig.

(** private keys and derivation *)
Theorem C17_total_key_new : forall b, graceful (key_new b).
Proof. exact C04_total. Qed.
Print Assumptions C17_total_key_new.

Theorem C17_total_derive : forall (hmac512 : bytes -> bytes -> bytes) (pub_compressed : N -> bytes),
  (forall k m, length (hmac512 k m) = 64%nat) -> forall seed p, graceful (derive hmac512 pub_compressed seed p).
Proof. exact C03_total. Qed.
Print Assumptions C17_total_derive.

(** transaction JSON, encoding, the sign command, v *)
Theorem C17_total_tx_of_json : forall j, graceful (tx_of_json j).
Proof. exact C06_total. Qed.
Print Assumptions C17_total_tx_of_json.

Theorem C17_total_encode : forall t σ, wf_tx t -> tx_fits t -> sig_fits σ -> exists bs, encode t σ = Ok bs.
Proof. exact C06_encode_total. Qed.
Print Assumptions C17_total_encode.

Theorem C17_total_sign_tx_cmd : forall (keccak : bytes -> bytes) (sign_digest : bytes -> outcome sig) allow sigonly j,
  (forall h, graceful (sign_digest h)) -> (forall h σ, sign_digest h = Ok σ -> valid_sig σ) ->
  doc_tokens_ok j -> (forall t, tx_of_json j = Ok t -> tx_fits t) ->
  graceful (sign_tx_cmd keccak sign_digest allow sigonly j).
Proof. exact C11_total. Qed.
Print Assumptions C17_total_sign_tx_cmd.

Theorem C17_v_never_overflows : forall j t c σ,
  tx_of_json j = Ok (Legacy t) -> l_chain_id t = Some c -> sig_v σ (Some c) = Ok (35 + 2 * c + parity_N σ).
Proof. exact C11_v_no_panic_parsed. Qed.
Print Assumptions C17_v_never_overflows.

Theorem C17_rlp_header_never_overflows : forall n off, n < 2 ^ 64 -> off = 0x80 \/ off = 0xc0 -> exists h, rlp_len n off = Ok h.
Proof. exact C07_len_no_panic. Qed.
Print Assumptions C17_rlp_header_never_overflows.

Theorem C17_total_numbers : forall j oj k,
  graceful (permissive_u256 j) /\ graceful (ethnum_permissive_i256 j) /\ graceful (numopt oj) /\ graceful (chainid_field oj)
  /\ graceful (bytes_field j) /\ graceful (bytearray_field k j) /\ graceful (address_field j) /\ graceful (opt_address_field oj).
Proof. exact C13_total. Qed.
Print Assumptions C17_total_numbers.

(** typed data: the type grammar (any number of array suffixes), the dependency work-list, values, the whole document *)
Theorem C17_kind_fuel_never_exhausted : forall n s, (length s < n)%nat -> kind_fuel_opt n s = Some (kind_of_string s).
Proof. exact Kind_fuel_never_exhausted. Qed.
Print Assumptions C17_kind_fuel_never_exhausted.

Theorem C17_total_encode_type : forall tys P, graceful (encode_type tys P).
Proof. exact C08_encode_type_total. Qed.
Print Assumptions C17_total_encode_type.

Theorem C17_worklist_fuel : forall tys P ms,
  encode_type_loop (encode_type_fuel tys ms) tys P (rev (struct_references ms)) [] <> OutOfFuel.
Proof. exact C08_loop_fuel_enough. Qed.
Print Assumptions C17_worklist_fuel.

Theorem C17_total_domain : forall types, graceful (verify_domain_type types).
Proof. exact C20_type_total. Qed.
Print Assumptions C17_total_domain.

Theorem C17_total_typed_data :
  (forall tys k j, graceful (encode_value_p real_prims tys k j))
  /\ (forall tys name obj, graceful (struct_hash_p real_prims tys name obj))
  /\ (forall j, graceful (compute_p real_prims j)).
Proof. exact real_total. Qed.
Print Assumptions C17_total_typed_data.

(** hex input and vanity prefixes *)
Theorem C17_total_permissive_hex : forall t, graceful (permissive_hex t).
Proof. exact C19_total. Qed.
Print Assumptions C17_total_permissive_hex.

Theorem C17_total_parse_prefix : forall t, graceful (parse_prefix t).
Proof. exact C18_prefix_total. Qed.
Print Assumptions C17_total_parse_prefix.

(** C13 (companion) — numbers at the level of the JSON TEXT ([Model/JsonText.v]): a plain decimal
    integer literal below 2^64 is read as exactly that integer (no floating point involved), and
    the objects of a document become maps (sorted distinct keys; the last of several equal member
    names wins) — the form in which [Model/Tx.v] and [Model/Eip712Values.v] receive them.
    Every other literal keeps its exact decimal value in the syntax tree ([NumF]); which double
    serde_json's reader makes of it is a parameter of [to_value] (known findings K1/K2). *)
From Coq Require Import String.
From Coq Require Import List NArith ZArith Bool Sorted Lia Permutation.
From HDW Require Import Lib.Outcome Lib.Bytes Lib.Decimal Model.Json Model.JsonText Model.Num Spec.Eip712TypeSpec Proofs.JsonTextProofs Proofs.JsonRoundTrip Proofs.JsonObjOrder.
From HDW Require Props.C13.
Import ListNotations.
Open Scope N_scope.

(** the number reader on a decimal literal below 2^64, when what follows cannot continue a number
    ([ends_num]: the end of the text, or a character other than a digit, [.], [e], [E]) ... *)
Theorem C13j_integer_literal_exact : forall n rest, n < 2 ^ 64 -> ends_num rest ->
  pnum (decimal n ++ rest) = Ok (NumU n, rest).
Proof. exact pnum_decimal. Qed.
Print Assumptions C13j_integer_literal_exact.

(** ... and on a document that is such a literal *)
Theorem C13j_integer_document_exact : forall n, n < 2 ^ 64 -> parse_doc (decimal n) = Ok (TNum (NumU n)).
Proof. exact parse_doc_decimal. Qed.
Print Assumptions C13j_integer_document_exact.

(** text -> number field: the literal's integer, whatever the floating-point reader does *)
Theorem C13j_integer_field_exact : forall rnd n, n < 2 ^ 64 ->
  bind (json_of_text rnd (decimal n)) permissive_u256 = Ok n.
Proof.
  intros rnd n Hn. unfold json_of_text. rewrite (parse_doc_decimal n Hn). cbn [bind to_value].
  exact (C13.C13_complete_u64 n Hn).
Qed.
Print Assumptions C13j_integer_field_exact.

(** an object becomes a map: the keys strictly increasing, each bound to the value of the last member
    of that name ([last_member]) *)
Theorem C13j_object_is_map : forall rnd kvs m,
  to_value rnd (TObj kvs) = Ok (JObj m) ->
  StronglySorted text_lt (map fst m) /\
  forall k, obj_get k m = last_member (to_value rnd) k kvs None.
Proof. exact to_value_object_is_map. Qed.
Print Assumptions C13j_object_is_map.

(** the order in which the members of an object are written is irrelevant (distinct member names): every
    permutation has the same value — for transactions, typed data, domains and messages alike *)
Theorem C13j_member_order_irrelevant : forall rnd l l', Permutation l l' -> NoDup (map fst l) ->
  to_value rnd (TObj l) = to_value rnd (TObj l').
Proof. exact to_value_member_order. Qed.
Print Assumptions C13j_member_order_irrelevant.

(** print / parse round trip: every syntax tree without floating-point literals (integers in the
    u64 / negative i64 range; strings and member names any sequences of Unicode scalar values, which
    the printer writes as UTF-8 with the quote, the backslash and control characters escaped; at most
    127 levels) is read back from its compact text exactly — members in order, duplicates included,
    whatever the nesting *)
Theorem C13j_print_parse_roundtrip : forall t, simple 127 t -> parse_doc (print t) = Ok t.
Proof. exact parse_print. Qed.
Print Assumptions C13j_print_parse_roundtrip.

(** more fuel never changes a result of the value parser other than [OutOfFuel] *)
Theorem C13j_fuel_irrelevant : forall k f d s, pv f d s <> OutOfFuel -> pv (k + f) d s = pv f d s.
Proof. intros k f d s. exact (fuel_add (fun f => pv f d s) (fun f => proj1 (one_more_fuel f) d s) k f). Qed.
Print Assumptions C13j_fuel_irrelevant.

(** the bridge from texts to the value-level theorems of C06 / C08 / C09 / C11 / C13: reading the printed
    text of a tree and then applying any reader [f] is applying [f] to the tree's value *)
Theorem C13j_text_pipeline : forall {A} rnd t (f : json -> outcome A), simple 127 t ->
  bind (json_of_text rnd (print t)) f = bind (to_value rnd t) f.
Proof. intros A rnd t f H. unfold json_of_text. rewrite (parse_print t H). reflexivity. Qed.
Print Assumptions C13j_text_pipeline.

(** a negative integer literal in a number field is refused, from the text on *)
Theorem C13j_negative_literal_refused : forall rnd z, (- 2 ^ 63 <= z <= -1)%Z ->
  bind (json_of_text rnd (45 :: decimal (Z.to_N (- z)))) permissive_u256 = Err.
Proof.
  intros rnd z Hz. change (45 :: decimal (Z.to_N (- z))) with (print (TNum (NumI z))).
  rewrite (C13j_text_pipeline rnd (TNum (NumI z)) permissive_u256 Hz). cbn [to_value bind].
  apply C13.C13_reject_negative_int. lia.
Qed.
Print Assumptions C13j_negative_literal_refused.

(** white space in front of the document changes nothing (not even through the fuel, which
    [parse_doc] derives from the length of the text) *)
Theorem C13j_leading_white_space_irrelevant : forall w s, all_ws w = true -> parse_doc (w ++ s) = parse_doc s.
Proof. exact parse_doc_leading_ws. Qed.
Print Assumptions C13j_leading_white_space_irrelevant.

(** non-vacuity of the round trip: a transaction-shaped tree meets its hypothesis *)
Example C13j_roundtrip_witness :
  let t := TObj [(s2l "nonce", TNum (NumU 18446744073709551615)); (s2l "to", TStr [34; 92; 10; 233; 8364; 128512]);
                 (s2l "accessList", TArr [TObj [(s2l "address", TStr (s2l "0x11")); (s2l "storageKeys", TArr [])]; TNull]);
                 (s2l "v", TNum (NumI (-9223372036854775808))); (s2l "nonce", TBool true)] in
  simple 127 t /\ print t = s2l "{""nonce"":18446744073709551615,""to"":""\""\\\u000aé€😀"",""accessList"":[{""address"":""0x11"",""storageKeys"":[]},null],""v"":-9223372036854775808,""nonce"":true}".
Proof.
  split; [|vm_compute; reflexivity].
  cbn. unfold plain, scalar_char. repeat constructor; lia.
Qed.
Print Assumptions C13j_roundtrip_witness.

(** non-vacuity: a document with a duplicate member, a negative integer, a float and an escape *)
Example C13j_witness :
  parse_doc (s2l "{""b"":1,""a"":[-2,2.50e1,""é""],""b"":18446744073709551615} ")
  = Ok (TObj [(s2l "b", TNum (NumU 1));
              (s2l "a", TArr [TNum (NumI (-2)); TNum (NumF false 250 (-1)); TStr [233]]);
              (s2l "b", TNum (NumU 18446744073709551615))])
  /\ to_value no_floats (TObj [(s2l "b", TNum (NumU 1)); (s2l "a", TNull); (s2l "b", TNum (NumU 2))])
     = Ok (JObj [(s2l "a", JNull); (s2l "b", JU64 2)]).
Proof. vm_compute. split; reflexivity. Qed.
Print Assumptions C13j_witness.

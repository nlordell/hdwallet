(** C07 — Every emitted RLP item is canonical and decodes to the original values.
    The proofs are lemmas of [Proofs/RlpProofs.v] or a few steps from them.
    Model: [Model/Rlp.v] (mirrors [src/transaction/rlp.rs]); specification: [Spec/RlpSpec.v]
    (Yellow-Paper [enc], strict decoder [dec_strict], scalar reader [int_of_str]). *)
From Coq Require Import String.
From Coq Require Import List NArith Bool PeanoNat.
From HDW Require Import Lib.Outcome Lib.Radix Lib.Bytes Model.Rlp Spec.RlpSpec Proofs.RlpProofs.
Import ListNotations.
Open Scope N_scope.
Open Scope outcome_scope.

(** The overflow-checked [u8] additions of [len] never fire for a [usize] length and the two
    offsets in use ([8 + 0xc0 + 55 = 255] is the tight case). *)
Theorem C07_len_no_panic : forall n off,
  n < 2 ^ 64 -> off = 0x80 \/ off = 0xc0 -> exists h, rlp_len n off = Ok h.
Proof. intros n off Hn [-> | ->]; eexists; apply rlp_len_enc; (exact Hn || discriminate). Qed.
Print Assumptions C07_len_no_panic.

(** ... and the header is the Yellow-Paper one (minimal big-endian length, short form below 56). *)
Theorem C07_model_is_enc_len : forall n off,
  n < 2 ^ 64 -> off <= 0xc0 -> rlp_len n off = Ok (enc_len n off).
Proof. exact rlp_len_enc. Qed.
Print Assumptions C07_model_is_enc_len.

(** The implementation computes the Yellow-Paper encoding. *)
Theorem C07_model_is_enc_bytes : forall b,
  N.of_nat (length b) < 2 ^ 64 -> rlp_bytes b = Ok (enc (Str b)).
Proof. exact rlp_bytes_enc. Qed.
Print Assumptions C07_model_is_enc_bytes.

Theorem C07_model_is_enc_uint : forall v,
  v < 2 ^ 256 -> rlp_uint v = Ok (enc (Str (be_min v))).
Proof. exact rlp_uint_enc. Qed.
Print Assumptions C07_model_is_enc_uint.

Theorem C07_model_is_enc_list : forall l,
  N.of_nat (length (flat_map enc l)) < 2 ^ 64 -> rlp_list (map enc l) = Ok (enc (Lst l)).
Proof. exact rlp_list_enc. Qed.
Print Assumptions C07_model_is_enc_list.

Theorem C07_model_is_enc_iter : forall l,
  N.of_nat (length (flat_map enc l)) < 2 ^ 64 -> rlp_iter (map enc l) = Ok (enc (Lst l)).
Proof. exact rlp_list_enc. Qed.
Print Assumptions C07_model_is_enc_iter.

(** The strict decoder accepts every encoding, returns the original item and leaves exactly
    the bytes that follow it (the fuel it derives from the input length is sufficient). *)
Theorem C07_roundtrip : forall i rest,
  wf_item i -> dec_strict (enc i ++ rest) = Some (i, rest).
Proof. exact roundtrip. Qed.
Print Assumptions C07_roundtrip.

(** The strict decoder accepts only canonical encodings. *)
Theorem C07_strict : forall bs i rest,
  bytes_ok bs -> dec_strict bs = Some (i, rest) -> bs = enc i ++ rest /\ wf_item i.
Proof. exact strict. Qed.
Print Assumptions C07_strict.

(** Distinct items never share an encoding; no encoding is a proper prefix of another. *)
Theorem C07_injective : forall a b, wf_item a -> wf_item b -> enc a = enc b -> a = b.
Proof. exact injective. Qed.
Print Assumptions C07_injective.

Theorem C07_prefix_free : forall a b r1 r2,
  wf_item a -> wf_item b -> enc a ++ r1 = enc b ++ r2 -> a = b /\ r1 = r2.
Proof. exact prefix_free. Qed.
Print Assumptions C07_prefix_free.

(** Integers: the minimal big-endian string reads back as the integer, zero is the empty
    string, and a leading zero byte is rejected. *)
Theorem C07_uint_canonical : forall v,
  int_of_str (be_min v) = Some v /\ (v = 0 -> be_min v = []).
Proof. exact uint_canonical. Qed.
Print Assumptions C07_uint_canonical.

Theorem C07_uint_leading_zero : forall r, int_of_str (0 :: r) = None.
Proof. reflexivity. Qed.
Print Assumptions C07_uint_leading_zero.

(** End to end on the model: what [bytes] / [uint] / [list] emit is accepted by the strict
    decoder, consumed completely, and gives back the original value: each emits [enc] of a
    well-formed item. *)
Theorem C07_bytes_decodes : forall b,
  bytes_ok b -> N.of_nat (length b) < 2 ^ 64 ->
  exists e, rlp_bytes b = Ok e /\ dec_strict e = Some (Str b, []).
Proof.
  intros b Hb Hlen. apply emitted_decodes; [apply rlp_bytes_enc, Hlen|constructor; assumption].
Qed.
Print Assumptions C07_bytes_decodes.

Theorem C07_uint_decodes : forall v,
  v < 2 ^ 256 ->
  exists e s, rlp_uint v = Ok e /\ dec_strict e = Some (Str s, []) /\ int_of_str s = Some v.
Proof.
  intros v Hv. destruct (emitted_decodes _ _ (rlp_uint_enc v Hv) (wf_uint v Hv)) as (e & He & Hd).
  exists e, (be_min v). exact (conj He (conj Hd (proj1 (uint_canonical v)))).
Qed.
Print Assumptions C07_uint_decodes.

Theorem C07_list_decodes : forall l,
  Forall wf_item l -> N.of_nat (length (flat_map enc l)) < 2 ^ 64 ->
  exists e, rlp_list (map enc l) = Ok e /\ dec_strict e = Some (Lst l, []).
Proof.
  intros l Hall Hlen. apply emitted_decodes; [apply rlp_list_enc, Hlen|constructor; assumption].
Qed.
Print Assumptions C07_list_decodes.

(** the vectors of the unit tests of rlp.rs *)

Example C07_ex_len : rlp_len 1024 0x80 = Ok [0xb9; 0x04; 0x00].
Proof. vm_compute. reflexivity. Qed.
Example C07_ex_dog : rlp_bytes (s2l "dog") = Ok (0x83 :: s2l "dog").
Proof. vm_compute. reflexivity. Qed.
Example C07_ex_cat_dog :
  (let* c := rlp_bytes (s2l "cat") in let* d := rlp_bytes (s2l "dog") in rlp_list [c; d])
  = Ok [0xc8; 0x83; 0x63; 0x61; 0x74; 0x83; 0x64; 0x6f; 0x67].
Proof. vm_compute. reflexivity. Qed.
Example C07_ex_empty_string : rlp_bytes [] = Ok [0x80].
Proof. vm_compute. reflexivity. Qed.
Example C07_ex_empty_list : rlp_list [] = Ok [0xc0].
Proof. vm_compute. reflexivity. Qed.
Example C07_ex_uint0 : rlp_uint 0 = Ok [0x80].
Proof. vm_compute. reflexivity. Qed.
Example C07_ex_byte0 : rlp_bytes [0] = Ok [0].
Proof. vm_compute. reflexivity. Qed.
Example C07_ex_uint15 : rlp_uint 15 = Ok [0x0f].
Proof. vm_compute. reflexivity. Qed.
Example C07_ex_uint1024 : rlp_uint 1024 = Ok [0x82; 0x04; 0x00].
Proof. vm_compute. reflexivity. Qed.
Example C07_ex_nested :
  (let* e := rlp_list [] in
   let* l1 := rlp_list [e] in
   let* l2 := rlp_list [e; l1] in
   rlp_list [e; l1; l2])
  = Ok [0xc7; 0xc0; 0xc1; 0xc0; 0xc3; 0xc0; 0xc1; 0xc0].
Proof. vm_compute. reflexivity. Qed.
Example C07_ex_lorem :
  rlp_bytes (s2l "Lorem ipsum dolor sit amet, consectetur adipisicing elit")
  = Ok (0xb8 :: 0x38 :: s2l "Lorem ipsum dolor sit amet, consectetur adipisicing elit").
Proof. vm_compute. reflexivity. Qed.

(** boundaries, extreme widths *)

Example C07_ex_len55 : rlp_len 55 0xc0 = Ok [0xf7] /\ rlp_len 56 0xc0 = Ok [0xf8; 56].
Proof. split; vm_compute; reflexivity. Qed.
Example C07_ex_len_max : rlp_len (2 ^ 64 - 1) 0xc0 = Ok (0xff :: repeat 0xff 8).
Proof. vm_compute. reflexivity. Qed.
Example C07_ex_byte7f_80 : rlp_bytes [0x7f] = Ok [0x7f] /\ rlp_bytes [0x80] = Ok [0x81; 0x80].
Proof. split; vm_compute; reflexivity. Qed.
Example C07_ex_uint_max : rlp_uint (2 ^ 256 - 1) = Ok (0xa0 :: repeat 0xff 32).
Proof. vm_compute. reflexivity. Qed.

(** the strict decoder: acceptance and rejections *)

Example C07_ex_dec_nested :
  dec_strict [0xc7; 0xc0; 0xc1; 0xc0; 0xc3; 0xc0; 0xc1; 0xc0; 0x07]
  = Some (Lst [Lst []; Lst [Lst []]; Lst [Lst []; Lst [Lst []]]], [0x07]).
Proof. vm_compute. reflexivity. Qed.
Example C07_ex_dec_long : dec_strict ([0xb8; 0x38] ++ repeat 1 56) = Some (Str (repeat 1 56), []).
Proof. vm_compute. reflexivity. Qed.
(** [0x81 b] with [b < 0x80] *)
Example C07_ex_rej_single : dec_strict [0x81; 0x05] = None.
Proof. vm_compute. reflexivity. Qed.
(** long form below 56 *)
Example C07_ex_rej_long_small : dec_strict [0xb8; 0x05; 1; 2; 3; 4; 5] = None.
Proof. vm_compute. reflexivity. Qed.
(** non-minimal length of length (leading zero length byte) *)
Example C07_ex_rej_len_zero : dec_strict ([0xb9; 0x00; 0x38] ++ repeat 1 56) = None.
Proof. vm_compute. reflexivity. Qed.
(** the same for lists *)
Example C07_ex_rej_list_long_small : dec_strict [0xf8; 0x01; 0xc0] = None.
Proof. vm_compute. reflexivity. Qed.
Example C07_ex_rej_list_len_zero : dec_strict ([0xf9; 0x00; 0x38] ++ repeat 0xc0 56) = None.
Proof. vm_compute. reflexivity. Qed.
(** truncated input; a huge announced length does not blow up *)
Example C07_ex_rej_truncated : dec_strict [0x83; 1; 2] = None /\ dec_strict (0xbf :: repeat 0xff 8) = None.
Proof. split; vm_compute; reflexivity. Qed.
(** a non-canonical item nested inside a list is rejected as well *)
Example C07_ex_rej_nested : dec_strict [0xc2; 0x81; 0x05] = None.
Proof. vm_compute. reflexivity. Qed.
(** a list payload must be used up exactly by its items *)
Example C07_ex_rej_list_trailing : dec_strict [0xc2; 0x83; 0x01] = None.
Proof. vm_compute. reflexivity. Qed.
Example C07_ex_int_leading_zero : int_of_str [0; 1] = None /\ int_of_str [1; 0] = Some 256 /\ int_of_str [] = Some 0.
Proof. repeat split. Qed.

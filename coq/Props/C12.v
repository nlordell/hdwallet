(** C12 — New mnemonics carry exactly the OS entropy; entropy failure is an error (partial: the
    unpredictability of the kernel's bytes is outside any model).  Statements; every proof is a
    lemma of [Proofs/EntropyProofs.v] or [Proofs/Bip39Proofs.v], or a line or two from them. *)
From Coq Require Import String.
From Coq Require Import List NArith Bool PeanoNat Arith.
From HDW Require Import Lib.Outcome Lib.Bytes Model.Bip39 Spec.Bip39Spec Model.Entropy Proofs.EntropyProofs.
Import ListNotations.
Close Scope N_scope.
Open Scope nat_scope.

(** Supported lengths are exactly 12, 15, 18, 21, 24; the entropy request is for L*4/3 bytes. *)
Theorem C12_supported : forall L n, byte_len L = Ok n <-> (valid_word_count L /\ n = (L * 4 / 3)%nat).
Proof. exact Bip39Proofs.byte_len_supported. Qed.
Print Assumptions C12_supported.

(** One request of exactly L*4/3 bytes is made; the mnemonic's entropy IS the bytes the source
    returned (an equality of byte lists: every entropy bit is an oracle bit, none is constant or
    derived otherwise); its word count is L; nothing else is consumed. *)
Theorem C12_exact : forall sha256 : bytes -> bytes, forall L n e rest reqs,
  byte_len L = Ok n -> length e = n -> bytes_ok e ->
  random sha256 L {| pending := Some e :: rest; requests := reqs |}
    = (Ok (mk_mnemonic sha256 e), {| pending := rest; requests := reqs ++ [n] |})
  /\ firstn (m_len (mk_mnemonic sha256 e)) (m_buf (mk_mnemonic sha256 e)) = e
  /\ mnemonic_length (mk_mnemonic sha256 e) = L.
Proof.
  intros sha256 L n e rest reqs HL He Hok. split; [|split].
  - exact (random_exact sha256 L n e rest reqs HL He).
  - exact (entropy_of_mk sha256 e).
  - exact (mnemonic_length_of_random sha256 L n e HL He).
Qed.
Print Assumptions C12_exact.

(** What [new -n L] prints is the BIP-39 phrase of exactly those bytes. *)
Theorem C12_phrase : forall sha256 : bytes -> bytes,
  (forall x, length (sha256 x) = 32%nat) -> (forall x, bytes_ok (sha256 x)) ->
  forall L n e rest reqs, byte_len L = Ok n -> length e = n -> bytes_ok e ->
  new_cmd sha256 L {| pending := Some e :: rest; requests := reqs |}
  = (Ok (bip39_phrase sha256 e), {| pending := rest; requests := reqs ++ [n] |}).
Proof. exact new_cmd_exact. Qed.
Print Assumptions C12_phrase.

(** Different entropy gives a different phrase (no bit of the entropy is dropped). *)
Theorem C12_phrase_injective : forall sha256 : bytes -> bytes,
  (forall x, length (sha256 x) = 32%nat) -> (forall x, bytes_ok (sha256 x)) ->
  forall e1 e2, bytes_ok e1 -> bytes_ok e2 -> valid_ent_len (length e1) -> valid_ent_len (length e2) ->
  bip39_phrase sha256 e1 = bip39_phrase sha256 e2 -> e1 = e2.
Proof. exact phrase_injective. Qed.
Print Assumptions C12_phrase_injective.

(** Unsupported lengths are refused (and no entropy is requested). *)
Theorem C12_unsupported : forall (sha256 : bytes -> bytes) L st,
  ~ valid_word_count L -> random sha256 L st = (Err, st) /\ new_cmd sha256 L st = (Err, st).
Proof. intros sha256 L st H. split; [exact (random_unsupported sha256 L st H) | exact (new_cmd_unsupported sha256 L st H)]. Qed.
Print Assumptions C12_unsupported.

(** If the source reports failure, generation fails and nothing is printed. *)
Theorem C12_failure : forall (sha256 : bytes -> bytes) L n rest reqs,
  byte_len L = Ok n ->
  random sha256 L {| pending := None :: rest; requests := reqs |} = (Err, {| pending := rest; requests := reqs ++ [n] |})
  /\ new_cmd sha256 L {| pending := None :: rest; requests := reqs |} = (Err, {| pending := rest; requests := reqs ++ [n] |}).
Proof. intros sha256 L n rest reqs H. split; [exact (random_failure sha256 L n rest reqs H) | exact (new_cmd_failure sha256 L n rest reqs H)]. Qed.
Print Assumptions C12_failure.

(** Every generated phrase parses back (to the same mnemonic, which prints the same phrase). *)
Theorem C12_reparse : forall sha256 : bytes -> bytes,
  (forall x, length (sha256 x) = 32%nat) -> (forall x, bytes_ok (sha256 x)) ->
  forall L n e, byte_len L = Ok n -> length e = n -> bytes_ok e ->
  from_phrase sha256 (bip39_phrase sha256 e) = Ok (mk_mnemonic sha256 e)
  /\ to_phrase (mk_mnemonic sha256 e) = Ok (bip39_phrase sha256 e).
Proof.
  intros sha256 H1 H2 L n e HL He Hok.
  assert (Hv : valid_ent_len (length e)) by (rewrite He; exact (Bip39Proofs.byte_len_valid_ent L n HL)).
  split; [exact (Bip39Proofs.roundtrip sha256 H1 H2 e Hok Hv) | exact (proj1 (Bip39Proofs.to_phrase_ok sha256 H1 H2 e Hok Hv))].
Qed.
Print Assumptions C12_reparse.

(** Non-vacuity: 16 zero bytes give a 12-word mnemonic whatever the hash function. *)
Example C12_example : forall sha256 : bytes -> bytes,
  fst (random sha256 12%nat {| pending := [Some (repeat 0%N 16%nat)]; requests := [] |}) = Ok (mk_mnemonic sha256 (repeat 0%N 16%nat))
  /\ requests (snd (random sha256 12%nat {| pending := [Some (repeat 0%N 16%nat)]; requests := [] |})) = [16%nat]
  /\ fst (random sha256 13%nat {| pending := [Some (repeat 0%N 16%nat)]; requests := [] |}) = Err.
Proof. intros sha256. repeat split. Qed.

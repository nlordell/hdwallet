(** C20 — Only well-formed EIP-712 domain types are accepted; and the member type grammar
    ([MemberKind::from_str] / [Display]) on which C20 and C08 rest.
    Statements; the proofs are in [Proofs/] or a few lines here. *)
From Coq Require Import String.
From Coq Require Import List NArith Bool PeanoNat.
From HDW Require Import Lib.Outcome Lib.Bytes Lib.Decimal.
From HDW Require Import Model.Eip712Kind Model.Domain Proofs.KindProofs Proofs.DomainProofs.
Import ListNotations.
Open Scope N_scope.

(** * The member type grammar *)

(** The derived [PartialEq] decides equality of kinds. *)
Theorem Kind_eqb_spec : forall a b, kind_eqb a b = true <-> a = b.
Proof. exact kind_eqb_spec. Qed.
Print Assumptions Kind_eqb_spec.

(** Any fuel above the length of the string gives the same kind. *)
Theorem Kind_fuel_enough : forall s n, (length s < n)%nat -> kind_of_string_fuel n s = kind_of_string s.
Proof. exact kind_fuel_enough. Qed.
Print Assumptions Kind_fuel_enough.

(** ... and the exhaustion branch is never evaluated ([kind_fuel_opt] is the parser
    instrumented to return [None] when it is). *)
Theorem Kind_fuel_never_exhausted : forall n s,
  (length s < n)%nat -> kind_fuel_opt n s = Some (kind_of_string s).
Proof. exact kind_fuel_never_exhausted. Qed.
Print Assumptions Kind_fuel_never_exhausted.

(** Printing a well-formed kind and parsing it back is the identity: bytes width 1..32,
    uint/int width a multiple of 8 in 8..256, array sizes up to [usize::MAX] = 2^64-1, struct
    names that are none of the four literals and contain no numeric character and no [']'];
    arbitrarily many array suffixes. *)
Theorem Kind_parse_display : forall k, wf_kind k -> kind_of_string (display_kind k) = k.
Proof. exact (parse_display_with ident_like kind_ident). Qed.
Print Assumptions Kind_parse_display.

(** The same with the weakest possible condition on struct names (the name itself parses as a
    struct; e.g. [Foo1], [bytes33], [uint7] qualify). *)
Theorem Kind_parse_display_gen : forall k,
  wf_kind_with struct_name_ok k -> kind_of_string (display_kind k) = k.
Proof. exact (parse_display_with struct_name_ok (fun _ H => H)). Qed.
Print Assumptions Kind_parse_display_gen.

(** [ident_like] covers every name made of ASCII letters, ['_'] and ['$'] other than
    [bool], [address], [bytes], [string]. *)
Theorem Kind_ident_like_ascii : forall name,
  ~ In name literal_atoms -> forallb ascii_ident_char name = true -> ident_like name.
Proof. exact ascii_ident_like. Qed.
Print Assumptions Kind_ident_like_ascii.

(** All 100 atomic types (4 literals, bytes1..bytes32, uint8..uint256, int8..int256; bound:
    the finite [atom_table]) parse to the intended kind and are printed back verbatim. *)
Theorem Kind_atoms :
  length atom_table = 100%nat /\
  Forall (fun e => kind_of_string (fst e) = snd e /\ display_kind (snd e) = fst e) atom_table.
Proof. exact (conj eq_refl atoms). Qed.
Print Assumptions Kind_atoms.

(** Array suffixes, for every text in front of them. *)
Theorem Kind_array_dyn : forall t, kind_of_string (t ++ s2l "[]") = KArray (kind_of_string t) None.
Proof. exact kind_array_dyn. Qed.
Print Assumptions Kind_array_dyn.

Theorem Kind_array_fixed : forall t n, n <= usize_max ->
  kind_of_string (t ++ [91] ++ decimal n ++ [93]) = KArray (kind_of_string t) (Some n).
Proof. exact kind_array_fixed. Qed.
Print Assumptions Kind_array_fixed.

(** The [find(char::is_numeric)] / [split_at] / [parse::<u32>] step accepts exactly
    [bytes|uint|int] followed by ASCII digits (leading zeros allowed) of admissible value. *)
Theorem Kind_sized_atom_spec : forall s k, sized_atom s = Some k <-> sized_spec s k.
Proof. exact sized_atom_spec. Qed.
Print Assumptions Kind_sized_atom_spec.

(** The non-ASCII part of the [char::is_numeric] table (Unicode version) cannot influence the
    grammar. *)
Theorem Kind_numeric_table_irrelevant : forall p q s,
  numeric_like p -> numeric_like q -> sized_atom_with p s = sized_atom_with q s.
Proof. exact sized_atom_table_irrelevant. Qed.
Print Assumptions Kind_numeric_table_irrelevant.

Theorem Kind_numeric_like_is_numeric : numeric_like is_numeric.
Proof. exact numeric_like_is_numeric. Qed.
Print Assumptions Kind_numeric_like_is_numeric.

(** Non-vacuity / the behaviours pinned against the real code. *)
Example Kind_examples :
  kind_of_string (s2l "uint8[3][]") = KArray (KArray (KUint 8) (Some 3)) None
  /\ kind_of_string (s2l "Person[2][][7]")
     = KArray (KArray (KArray (KStruct (s2l "Person")) (Some 2)) None) (Some 7)
  /\ kind_of_string (s2l "uint08") = KUint 8
  /\ display_kind (kind_of_string (s2l "uint08")) = s2l "uint8"
  /\ kind_of_string (s2l "bytes33") = KStruct (s2l "bytes33")
  /\ kind_of_string (s2l "bytes0") = KStruct (s2l "bytes0")
  /\ kind_of_string (s2l "uint7") = KStruct (s2l "uint7")
  /\ kind_of_string (s2l "uint264") = KStruct (s2l "uint264")
  /\ kind_of_string (s2l "uint+8") = KStruct (s2l "uint+8")
  /\ kind_of_string (s2l "Foo1") = KStruct (s2l "Foo1")
  /\ kind_of_string (s2l "bytes" ++ [0xFF11]) = KStruct (s2l "bytes" ++ [0xFF11])
  /\ kind_of_string (s2l "x[+2]") = KArray (KStruct (s2l "x")) (Some 2)
  /\ kind_of_string (s2l "x[-1]") = KStruct (s2l "x[-1]")
  /\ kind_of_string (s2l "uint8[18446744073709551616]") = KStruct (s2l "uint8[18446744073709551616]")
  /\ kind_of_string (s2l "[]") = KArray (KStruct []) None
  /\ kind_of_string [] = KStruct []
  /\ struct_reference (kind_of_string (s2l "Person[2][][7]")) = Some (s2l "Person")
  /\ struct_reference (kind_of_string (s2l "uint8[]")) = None.
Proof. vm_compute. repeat split. Qed.

(** * C20: the domain type check *)

(** Accepted exactly when the declared members are a non-empty order-preserving sub-sequence
    of name:string, version:string, chainId:uint256, verifyingContract:address, salt:bytes32
    (names and kinds of the members arbitrary, lists unbounded). *)
Theorem C20_iff : forall ms, verify_domain ms = Ok tt <-> domain_ok ms.
Proof. exact verify_domain_iff. Qed.
Print Assumptions C20_iff.

(** Anything else is an ordinary error. *)
Theorem C20_reject : forall ms, ~ domain_ok ms -> verify_domain ms = Err.
Proof. exact verify_domain_reject. Qed.
Print Assumptions C20_reject.

(** Exactly the 31 non-empty sub-sequences are accepted: the enumeration has 31 pairwise
    distinct entries, each is accepted, nothing else is. *)
Theorem C20_31 :
  (forall ms, verify_domain ms = Ok tt
              <-> In (map member_pair ms) (nonempty_sublists domain_members))
  /\ length (nonempty_sublists domain_members) = 31%nat
  /\ NoDup (nonempty_sublists domain_members)
  /\ Forall (fun s => verify_domain (map member_of_pair s) = Ok tt)
            (nonempty_sublists domain_members).
Proof.
  split; [exact verify_domain_31|]. split; [reflexivity|]. split.
  - exact (nonempty_sublists_NoDup _ (NoDup_map_inv _ _ domain_names_nodup)).
  - apply Forall_forall. intros s H. apply verify_domain_31. rewrite member_pair_of_pair. exact H.
Qed.
Print Assumptions C20_31.

(** Each field at most once. *)
Theorem C20_each_once : forall ms, ~ NoDup (map m_name ms) -> verify_domain ms = Err.
Proof.
  intros ms H. apply verify_domain_reject. intros D. apply H.
  exact (sublist_NoDup _ _ (domain_ok_names ms D) domain_names_nodup).
Qed.
Print Assumptions C20_each_once.

Theorem C20_each_once_repeated : forall pre mid post a b,
  m_name a = m_name b -> verify_domain (pre ++ a :: mid ++ b :: post) = Err.
Proof.
  intros pre mid post a b E. apply C20_each_once. intros N.
  rewrite map_app in N. cbn [map] in N. apply NoDup_remove_2 in N. apply N.
  rewrite map_app, !in_app_iff. cbn [map In]. auto.
Qed.
Print Assumptions C20_each_once_repeated.

(** Relative order: the names of an accepted domain are a sub-sequence of the standard order;
    exchanging any two members of an accepted domain gives a rejected one. *)
Theorem C20_order_names : forall ms,
  verify_domain ms = Ok tt -> sublist (map m_name ms) (map fst domain_members).
Proof. intros ms H. apply domain_ok_names, verify_domain_iff, H. Qed.
Print Assumptions C20_order_names.

Theorem C20_order : forall pre mid post a b,
  verify_domain (pre ++ a :: mid ++ b :: post) = Ok tt ->
  verify_domain (pre ++ b :: mid ++ a :: post) = Err.
Proof. exact order_swapped. Qed.
Print Assumptions C20_order.

(** Exact types: a standard field declared with any other kind is refused, wherever it stands. *)
Theorem C20_exact_types : forall ms m k,
  In m ms -> In (m_name m, k) domain_members -> m_kind m <> k -> verify_domain ms = Err.
Proof.
  intros ms m k Hm Hk Hne. apply verify_domain_reject. intros D. apply Hne.
  exact (nodup_fst_functional _ _ _ _ domain_names_nodup (domain_ok_member ms m D Hm) Hk).
Qed.
Print Assumptions C20_exact_types.

(** Unknown fields are refused, wherever they stand. *)
Theorem C20_unknown_field : forall ms m,
  In m ms -> ~ In (m_name m) (map fst domain_members) -> verify_domain ms = Err.
Proof.
  intros ms m Hm Hn. apply verify_domain_reject. intros D. apply Hn.
  exact (in_map fst _ _ (domain_ok_member ms m D Hm)).
Qed.
Print Assumptions C20_unknown_field.

Theorem C20_empty : verify_domain [] = Err.
Proof. reflexivity. Qed.
Print Assumptions C20_empty.

(** A document without a domain type is refused. *)
Theorem C20_missing : forall types,
  ~ In (s2l "EIP712Domain") (map fst types) -> verify_domain_type types = Err.
Proof. intros types H. unfold verify_domain_type. rewrite types_get_none by exact H. reflexivity. Qed.
Print Assumptions C20_missing.

Theorem C20_type_iff : forall types,
  verify_domain_type types = Ok tt <->
  exists ms, types_get (s2l "EIP712Domain") types = Some ms /\ domain_ok ms.
Proof. exact verify_domain_type_iff. Qed.
Print Assumptions C20_type_iff.

(** Never a panic, never out of fuel. *)
Theorem C20_total : forall ms, graceful (verify_domain ms).
Proof. exact verify_domain_total. Qed.
Print Assumptions C20_total.

Theorem C20_type_total : forall types, graceful (verify_domain_type types).
Proof. exact verify_domain_type_total. Qed.
Print Assumptions C20_type_total.

(** Non-vacuity, with kinds obtained from type strings as in a document. *)
Local Open Scope string_scope.
Example C20_examples :
  let mk (n t : string) := {| m_name := s2l n; m_kind := kind_of_string (s2l t) |} in
  verify_domain [mk "name" "string"; mk "chainId" "uint256"; mk "salt" "bytes32"] = Ok tt
  /\ verify_domain [mk "chainId" "uint256"; mk "name" "string"] = Err
  /\ verify_domain [mk "name" "string"; mk "name" "string"] = Err
  /\ verify_domain [mk "name" "string"; mk "salt" "bytes"] = Err
  /\ verify_domain [mk "name" "string"; mk "foo" "string"] = Err
  /\ verify_domain [mk "chainId" "uint0256"] = Ok tt.
Proof. vm_compute. repeat split. Qed.

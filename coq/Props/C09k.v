(** C09 (companion, with the digest equation of C08's value half) — the theorems of
    [Props/C09.v] that need only the size / totality bundles, at the primitives that
    [Run/DC08.v] evaluates: Keccak-256 of [Prim/Keccak.v], the type hash of
    [Model/Eip712Types.v], the leaf deserialisers of [Model/Num.v]
    (= the record [Proofs/Eip712ValueInst.real_prims]).  They are stated about the driver's own
    functions [c08_encode_value], [c08_struct_hash], [c08_compute_model]
    ([C09k_driver_is_real_prims]: these are the model at [real_prims], by computation).
    [prims_sized real_prims] is proved outright ([real_prims_sized], from [keccak256_length]);
    [prims_total real_prims] follows from [C08_type_hash_total] ([real_prims_total]).
    NOT instantiated: the statements of [Props/C09.v] that need [prims_ranged] / [prims_denote]
    ([C09_uint_range], [C09_uint_reject], [C09_int_range], [C09_int_reject]): the number readers of
    [Model/Num.v] respect the ranges for well-formed number tokens ([num_token_ok]) only, e.g.
    [permissive_u256 (JU64 n) = Ok n] for every [n], and no token-restricted form of the bundles is
    stated. *)
From Coq Require Import String.
From Coq Require Import List NArith ZArith Bool.
From HDW Require Import Lib.Outcome Lib.Bytes Prim.Keccak.
From HDW Require Import Model.Json Model.Eip712Kind Model.Domain Model.Num Model.Eip712Types Model.Eip712Values.
From HDW Require Import Spec.Eip712ValueSpec Proofs.Eip712ValueInst.
From HDW Require Import Run.DC08.
From HDW Require Props.C08 Props.C09.
Import ListNotations.
Open Scope N_scope.

(** what the driver evaluates is the model at [real_prims] *)
Theorem C09k_driver_is_real_prims :
  c08_encode_value = encode_value_p real_prims
  /\ c08_struct_hash = struct_hash_p real_prims
  /\ c08_compute_model = compute_p real_prims.
Proof. exact (conj eq_refl (conj eq_refl eq_refl)). Qed.
Print Assumptions C09k_driver_is_real_prims.

(** the two bundles, for the real primitives, with nothing assumed *)
Theorem C09k_prims_sized_total : prims_sized real_prims /\ prims_total real_prims.
Proof. exact (conj real_prims_sized real_prims_total). Qed.
Print Assumptions C09k_prims_sized_total.

(** no panic and no fuel exhaustion anywhere: every outcome is a result or an ordinary error *)
Theorem C09k_total :
  (forall tys k j, graceful (c08_encode_value tys k j)) /\
  (forall tys name obj, graceful (c08_struct_hash tys name obj)) /\
  (forall j, graceful (c08_compute_model j)).
Proof. exact real_total. Qed.
Print Assumptions C09k_total.

(** the signing digest is Keccak-256 of 0x19 0x01 ‖ domain separator ‖ message hash *)
Theorem C09k_digest_eq : forall j d ds mh,
  c08_compute_model j = Ok (d, ds, mh) -> d = keccak256 ([0x19; 0x01] ++ ds ++ mh).
Proof. exact real_digest_eq. Qed.
Print Assumptions C09k_digest_eq.

(** a declared member is absent from the object *)
Theorem C09k_missing_member : forall tys name ms obj m,
  types_get name tys = Some ms -> In m ms -> obj_get (m_name m) obj = None ->
  c08_struct_hash tys name obj = Err.
Proof.
  intros tys name ms obj m. exact (C09.C09_missing_member real_prims tys name ms obj m real_prims_sized real_prims_total).
Qed.
Print Assumptions C09k_missing_member.

(** the object has a key that is not a declared member *)
Theorem C09k_extra_member : forall tys name ms obj key,
  types_get name tys = Some ms -> In key (map fst obj) -> ~ In key (map m_name ms) ->
  c08_struct_hash tys name obj = Err.
Proof.
  intros tys name ms obj key. exact (C09.C09_extra_member real_prims tys name ms obj key real_prims_sized real_prims_total).
Qed.
Print Assumptions C09k_extra_member.

(** a reference to an undefined struct type *)
Theorem C09k_undefined_struct : forall tys name,
  types_get name tys = None ->
  (forall obj, c08_struct_hash tys name obj = Err) /\
  (forall j, c08_encode_value tys (KStruct name) j = Err).
Proof. exact (C09.C09_undefined_struct real_prims). Qed.
Print Assumptions C09k_undefined_struct.

(** ... also when only the type of a member refers to it (the type hash is then an error) *)
Theorem C09k_unresolved_dependency : forall tys name,
  c08_type_hash tys name = Err ->
  (forall obj, c08_struct_hash tys name obj = Err) /\
  (forall j, c08_encode_value tys (KStruct name) j = Err).
Proof. exact (C09.C09_unresolved_dependency real_prims). Qed.
Print Assumptions C09k_unresolved_dependency.

(** a JSON value of the wrong kind *)
Theorem C09k_wrong_kind : forall tys j,
  ((forall b, j <> JBool b) -> c08_encode_value tys KBool j = Err) /\
  ((forall s, j <> JStr s) -> c08_encode_value tys KString j = Err) /\
  (forall name, (forall kvs, j <> JObj kvs) -> c08_encode_value tys (KStruct name) j = Err) /\
  (forall k s, (forall l, j <> JArr l) -> c08_encode_value tys (KArray k s) j = Err) /\
  (forall n, permissive_u256 j = Err -> c08_encode_value tys (KUint n) j = Err) /\
  (forall n, ethnum_permissive_i256 j = Err -> c08_encode_value tys (KInt n) j = Err) /\
  (forall n, bytes_field j = Err -> c08_encode_value tys (KBytes n) j = Err) /\
  (address_field j = Err -> c08_encode_value tys KAddress j = Err).
Proof. exact (C09.C09_wrong_kind real_prims). Qed.
Print Assumptions C09k_wrong_kind.

(** bytesN: exactly N bytes (N at most 32), right-padded with zeros; never truncated *)
Theorem C09k_bytesN_length : forall tys n j w,
  c08_encode_value tys (KBytes (Some n)) j = Ok w ->
  exists b, bytes_field j = Ok b /\ N.of_nat (length b) = n /\ n <= 32 /\
            w = b ++ repeat 0 (32 - N.to_nat n)%nat.
Proof. exact (C09.C09_bytesN_length real_prims). Qed.
Print Assumptions C09k_bytesN_length.

Theorem C09k_bytesN_reject : forall tys n j b,
  bytes_field j = Ok b -> N.of_nat (length b) <> n -> c08_encode_value tys (KBytes (Some n)) j = Err.
Proof. exact (C09.C09_bytesN_reject real_prims). Qed.
Print Assumptions C09k_bytesN_reject.

(** fixed-size arrays *)
Theorem C09k_fixed_array_length : forall tys k n l w,
  c08_encode_value tys (KArray k (Some n)) (JArr l) = Ok w -> N.of_nat (length l) = n.
Proof. exact (C09.C09_fixed_array_length real_prims). Qed.
Print Assumptions C09k_fixed_array_length.

Theorem C09k_fixed_array_reject : forall tys k n l,
  N.of_nat (length l) <> n -> c08_encode_value tys (KArray k (Some n)) (JArr l) = Err.
Proof. exact (C09.C09_fixed_array_reject real_prims). Qed.
Print Assumptions C09k_fixed_array_reject.

(** negative numbers (and whatever else [permissive_u256] refuses) for unsigned types *)
Theorem C09k_uint_negative : forall tys n j,
  permissive_u256 j = Err -> c08_encode_value tys (KUint n) j = Err.
Proof. exact (C09.C09_uint_negative real_prims). Qed.
Print Assumptions C09k_uint_negative.

(** the rejection propagates from any position: any element of an array ... *)
Theorem C09k_position_independent_array : forall tys k s l x,
  In x l -> c08_encode_value tys k x = Err -> c08_encode_value tys (KArray k s) (JArr l) = Err.
Proof.
  intros tys k s l x. exact (C09.C09_position_independent_array real_prims tys k s l x real_prims_sized real_prims_total).
Qed.
Print Assumptions C09k_position_independent_array.

(** ... and the value of any member of a struct, from any depth *)
Theorem C09k_position_independent_member : forall tys name ms obj m x,
  NoDup (map fst obj) -> types_get name tys = Some ms -> In m ms ->
  obj_get (m_name m) obj = Some x -> c08_encode_value tys (m_kind m) x = Err ->
  c08_struct_hash tys name obj = Err /\ c08_encode_value tys (KStruct name) (JObj obj) = Err.
Proof.
  intros tys name ms obj m x. exact (C09.C09_position_independent_member real_prims tys name ms obj m x real_prims_sized real_prims_total).
Qed.
Print Assumptions C09k_position_independent_member.

(** an error is not also a digest *)
Theorem C09k_nothing_hashed : forall j, c08_compute_model j = Err -> ~ exists r, c08_compute_model j = Ok r.
Proof. exact (C09.C09_nothing_hashed real_prims). Qed.
Print Assumptions C09k_nothing_hashed.

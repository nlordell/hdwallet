(** Executable secp256k1 point arithmetic (dependency primitive: the Rust crate uses [k256 0.13]).

    "Modelled, not verified": this file contains no group-law proofs.  It is an
    executable reference, evaluated by [vm_compute], tied to the real implementation by
    test vectors (the [Example]s at the end) and by the differential check
    ([Run/DSecp.v], harness commands [prim.pubkey], [prim.recover], ...).

    Representation: field arithmetic modulo p (and modulo n for [inv_n]) is done in
    [BigZ] (Uint63 limbs); interface values are plain [Z], converted at the boundary only.
    Scalar multiplication works in Jacobian coordinates (a = 0 formulas) with mixed
    additions, one field inversion (Fermat) at the end.  All recursion is structural on
    the [positive] binary representation of the scalar / exponent: no fuel anywhere. *)
From Coq Require Import List Bool NArith ZArith Lia.
From Bignums Require Import BigZ.
From HDW Require Import Lib.Bytes.
Import ListNotations.

Local Open Scope bool_scope.
Local Open Scope Z_scope.

(* ------------------------------------------------------------------------------------ *)
(** * Curve constants (interface level, [Z]) *)

Definition point := option (Z * Z).

Definition secp_p : Z := 2^256 - 2^32 - 977.
Definition secp_n : Z := 0xFFFFFFFFFFFFFFFFFFFFFFFFFFFFFFFEBAAEDCE6AF48A03BBFD25E8CD0364141.

Definition secp_Gx : Z := 0x79BE667EF9DCBBAC55A06295CE870B07029BFCDB2DCE28D959F2815B16F81798.
Definition secp_Gy : Z := 0x483ADA7726A3C4655DA4FBFC0E1108A8FD17B448A68554199C47D08FFB10D4B8.
Definition secp_G : point := Some (secp_Gx, secp_Gy).

(* ------------------------------------------------------------------------------------ *)
(** * Field arithmetic in BigZ *)

Module F.
  Local Open Scope bigZ_scope.

  Definition bp : bigZ := Eval vm_compute in BigZ.of_Z secp_p.
  Definition bn : bigZ := Eval vm_compute in BigZ.of_Z secp_n.
  Definition b7 : bigZ := Eval vm_compute in BigZ.of_Z 7.

  (** Only products are reduced; sums and differences are left unreduced (BigZ is signed
      and [BigZ.modulo] has the sign of the modulus, so the next reduction repairs them). *)
  Definition red (a : bigZ) : bigZ := a mod bp.
  Definition mul (a b : bigZ) : bigZ := (a * b) mod bp.
  Definition sqr (a : bigZ) : bigZ := BigZ.square a mod bp.
  Definition dbl (a : bigZ) : bigZ := a + a.

  (** [pow_mod m b e] = b^e mod m for b already reduced, left-to-right square and multiply
      (structural on [e]: the outermost constructor is the least significant bit). *)
  Fixpoint pow_mod (m b : bigZ) (e : positive) : bigZ :=
    match e with
    | xH => b
    | xO e' => let t := pow_mod m b e' in BigZ.square t mod m
    | xI e' => let t := pow_mod m b e' in ((BigZ.square t mod m) * b) mod m
    end.

  (** Fermat inversion modulo the prime [m] (0 maps to 0). *)
  Definition inv_mod (m : bigZ) (e : positive) (a : bigZ) : bigZ := pow_mod m (a mod m) e.

  Definition p_minus_2 : positive := Eval vm_compute in Z.to_pos (secp_p - 2).
  Definition n_minus_2 : positive := Eval vm_compute in Z.to_pos (secp_n - 2).
  Definition p_plus_1_div_4 : positive := Eval vm_compute in Z.to_pos ((secp_p + 1) / 4).

  Definition inv (a : bigZ) : bigZ := inv_mod bp p_minus_2 a.
  Definition sqrt_candidate (a : bigZ) : bigZ := pow_mod bp (a mod bp) p_plus_1_div_4.

  (** ** Jacobian points: (X, Y, Z) stands for (X/Z^2, Y/Z^3); Z = 0 is infinity. *)
  Record jac := Jac { jx : bigZ; jy : bigZ; jz : bigZ }.

  Definition jinf : jac := Jac 1 1 0.

  Definition is_zero (a : bigZ) : bool := (a mod bp) =? 0.

  (** dbl-2009-l (a = 0).  Correct for infinity as well (Z3 = 2*Y*Z = 0), and for
      points of order two (Y = 0 gives Z3 = 0). *)
  Definition jdbl (P : jac) : jac :=
    let (X1, Y1, Z1) := P in
    let A := sqr X1 in
    let B := sqr Y1 in
    let C := sqr B in
    let D := dbl (sqr (X1 + B) - A - C) in
    let E := A + A + A in
    let Fv := sqr E in
    let X3 := red (Fv - dbl D) in
    let Y3 := red (E * (D - X3) - dbl (dbl (dbl C))) in
    let Z3 := mul (dbl Y1) Z1 in
    Jac X3 Y3 Z3.

  (** mixed addition P + (x2, y2) with the second point affine (Z2 = 1); complete. *)
  Definition jmadd (P : jac) (x2 y2 : bigZ) : jac :=
    let (X1, Y1, Z1) := P in
    if is_zero Z1 then Jac x2 y2 1 else
    let Z1Z1 := sqr Z1 in
    let U2 := mul x2 Z1Z1 in
    let S2 := mul y2 (mul Z1 Z1Z1) in
    let H := red (U2 - X1) in
    let R := red (S2 - Y1) in
    if H =? 0 then
      (if R =? 0 then jdbl P else jinf)
    else
      let HH := sqr H in
      let HHH := mul H HH in
      let V := mul X1 HH in
      let X3 := red (sqr R - HHH - dbl V) in
      let Y3 := red (R * (V - X3) - Y1 * HHH) in
      let Z3 := mul Z1 H in
      Jac X3 Y3 Z3.

  (** k * (x, y) for k >= 1, double-and-add from the most significant bit. *)
  Fixpoint jmul_pos (k : positive) (x y : bigZ) : jac :=
    match k with
    | xH => Jac x y 1
    | xO k' => jdbl (jmul_pos k' x y)
    | xI k' => jmadd (jdbl (jmul_pos k' x y)) x y
    end.

  (** back to affine, reduced to [0,p): the single inversion. *)
  Definition to_affine (P : jac) : option (bigZ * bigZ) :=
    let (X1, Y1, Z1) := P in
    if is_zero Z1 then None else
    let zi := inv Z1 in
    let zi2 := sqr zi in
    Some (mul X1 zi2, mul Y1 (mul zi zi2)).

  (** complete affine addition (one inversion) *)
  Definition aadd (x1 y1 x2 y2 : bigZ) : option (bigZ * bigZ) :=
    let dx := red (x2 - x1) in
    let dy := red (y2 - y1) in
    if dx =? 0 then
      if dy =? 0 then
        (* doubling: lambda = 3 x^2 / 2 y *)
        if is_zero y1 then None else
        let l := mul (let a := sqr x1 in a + a + a) (inv (dbl y1)) in
        let x3 := red (sqr l - dbl x1) in
        Some (x3, red (l * (x1 - x3) - y1))
      else None
    else
      let l := mul dy (inv dx) in
      let x3 := red (sqr l - x1 - x2) in
      Some (x3, red (l * (x1 - x3) - y1)).

  Definition of_pair (xy : Z * Z) : bigZ * bigZ :=
    (BigZ.of_Z (fst xy) mod bp, BigZ.of_Z (snd xy) mod bp).
  Definition to_point (r : option (bigZ * bigZ)) : point :=
    match r with
    | Some (x, y) => Some (BigZ.to_Z x, BigZ.to_Z y)
    | None => None
    end.
End F.

(* ------------------------------------------------------------------------------------ *)
(** * Interface *)

(** complete affine-level addition: handles [None], P = Q (doubling), P = -Q.
    Coordinates of the arguments are reduced modulo p first. *)
Definition pt_add (P Q : point) : point :=
  match P, Q with
  | None, _ => match Q with
               | Some q => let (x, y) := F.of_pair q in F.to_point (Some (x, y))
               | None => None
               end
  | Some p, None => let (x, y) := F.of_pair p in F.to_point (Some (x, y))
  | Some p, Some q =>
      let (x1, y1) := F.of_pair p in
      let (x2, y2) := F.of_pair q in
      F.to_point (F.aadd x1 y1 x2 y2)
  end.

Definition pt_neg (P : point) : point :=
  match P with
  | None => None
  | Some (x, y) => Some (x mod secp_p, (- y) mod secp_p)
  end.

(** k is first reduced modulo n; k = 0 (mod n) gives [None]. *)
Definition pt_mul (k : Z) (P : point) : point :=
  match P with
  | None => None
  | Some xy =>
      match k mod secp_n with
      | Zpos kp => let (x, y) := F.of_pair xy in F.to_point (F.to_affine (F.jmul_pos kp x y))
      | _ => None
      end
  end.

Definition pt_mul_G (k : Z) : point := pt_mul k secp_G.

Definition pt_mul2 (a : Z) (P : point) (b : Z) (Q : point) : point :=
  pt_add (pt_mul a P) (pt_mul b Q).

(** the curve point with abscissa x (0 <= x < p) and the given parity of y; [None] if
    x^3 + 7 is not a square or x is out of range.  sqrt = (x^3+7)^((p+1)/4), then check. *)
Definition lift_x (x : Z) (odd : bool) : point :=
  if (x <? 0) || (secp_p <=? x) then None else
  let bx := BigZ.of_Z x in
  let c := BigZ.modulo (BigZ.add (F.mul bx (F.sqr bx)) F.b7) F.bp in
  let y := F.sqrt_candidate c in
  if BigZ.eqb (F.sqr y) c then
    let yz := BigZ.to_Z y in
    Some (x, if Bool.eqb (Z.odd yz) odd then yz else (secp_p - yz) mod secp_p)
  else None.

(** y^2 = x^3 + 7 (mod p) with both coordinates in [0,p); the point at infinity counts
    as on the curve. *)
Definition on_curve (P : point) : bool :=
  match P with
  | None => true
  | Some (x, y) =>
      (0 <=? x) && (x <? secp_p) && (0 <=? y) && (y <? secp_p) &&
      (let bx := BigZ.of_Z x in
       let by_ := BigZ.of_Z y in
       BigZ.eqb (F.sqr by_)
                (BigZ.modulo (BigZ.add (F.mul bx (F.sqr bx)) F.b7) F.bp))
  end.

(** modular inverse modulo n in [0,n) (Fermat, a^(n-2)); [inv_n 0 = 0]. *)
Definition inv_n (a : Z) : Z :=
  BigZ.to_Z (F.inv_mod F.bn F.n_minus_2 (BigZ.of_Z a)).

(* ------------------------------------------------------------------------------------ *)
(** * Serialisation (SEC1) *)

Definition be32 (x : Z) : list N := be_fixed 32 (Z.to_N (x mod 2^256)).

(** 0x04 ‖ X(32 BE) ‖ Y(32 BE); the point at infinity is the single byte 0 *)
Definition ser_uncompressed (P : point) : list N :=
  match P with
  | Some (x, y) => 4%N :: be32 x ++ be32 y
  | None => [0%N]
  end.

(** 0x02 (y even) / 0x03 (y odd) ‖ X(32 BE); the point at infinity is the single byte 0 *)
Definition ser_compressed (P : point) : list N :=
  match P with
  | Some (x, y) => (if Z.odd y then 3%N else 2%N) :: be32 x
  | None => [0%N]
  end.

Lemma be32_length x : length (be32 x) = 32%nat.
Proof. apply be_fixed_length. Qed.

Lemma be32_ok x : bytes_ok (be32 x).
Proof. apply be_fixed_ok. Qed.

Lemma ser_uncompressed_length x y : length (ser_uncompressed (Some (x, y))) = 65%nat.
Proof.
  cbn [ser_uncompressed length]. rewrite app_length, !be32_length. reflexivity.
Qed.

Lemma ser_compressed_length x y : length (ser_compressed (Some (x, y))) = 33%nat.
Proof.
  cbn [ser_compressed length]. rewrite be32_length. reflexivity.
Qed.

Lemma ser_uncompressed_ok P : bytes_ok (ser_uncompressed P).
Proof.
  destruct P as [[x y]|]; cbn [ser_uncompressed].
  - apply Forall_cons; [reflexivity|]. apply bytes_ok_app. split; apply be32_ok.
  - apply Forall_cons; [reflexivity|]. apply Forall_nil.
Qed.

Lemma ser_compressed_ok P : bytes_ok (ser_compressed P).
Proof.
  destruct P as [[x y]|]; cbn [ser_compressed].
  - apply Forall_cons; [destruct (Z.odd y); reflexivity|]. apply be32_ok.
  - apply Forall_cons; [reflexivity|]. apply Forall_nil.
Qed.

Lemma pt_mul_G_eq k : pt_mul_G k = pt_mul k secp_G.
Proof. reflexivity. Qed.

Lemma pt_mul2_eq a P b Q : pt_mul2 a P b Q = pt_add (pt_mul a P) (pt_mul b Q).
Proof. reflexivity. Qed.

Lemma pt_mul_inf k : pt_mul k None = None.
Proof. reflexivity. Qed.

Lemma pt_neg_inf : pt_neg None = None.
Proof. reflexivity. Qed.

Lemma pt_add_inf_inf : pt_add None None = None.
Proof. reflexivity. Qed.

Lemma ser_uncompressed_inf : ser_uncompressed None = [0%N].
Proof. reflexivity. Qed.

Lemma ser_compressed_inf : ser_compressed None = [0%N].
Proof. reflexivity. Qed.

(* ------------------------------------------------------------------------------------ *)
(** * Test vectors *)

Definition secp_2G : point :=
  Some (0xC6047F9441ED7D6D3045406E95C07CD85C778E4B8CEF3CA7ABAC09B95C709EE5,
        0x1AE168FEA63DC339A3C58419466CEAEEF7F632653266D0E1236431A950CFE52A).

Example ex_G_on_curve : on_curve secp_G = true.
Proof. vm_compute. reflexivity. Qed.

Example ex_G_off_curve : on_curve (Some (secp_Gx, secp_Gy + 1)) = false.
Proof. vm_compute. reflexivity. Qed.

Example ex_1G : pt_mul_G 1 = secp_G.
Proof. vm_compute. reflexivity. Qed.

Example ex_2G : pt_mul_G 2 = secp_2G.
Proof. vm_compute. reflexivity. Qed.

Example ex_3G_x :
  option_map fst (pt_mul_G 3)
  = Some 0xF9308A019258C31049344F85F89D5229B531C845836F99B08601F113BCE036F9.
Proof. vm_compute. reflexivity. Qed.

Example ex_3G_add : pt_add secp_2G secp_G = pt_mul_G 3.
Proof. vm_compute. reflexivity. Qed.

Example ex_nm1_G : pt_mul_G (secp_n - 1) = Some (secp_Gx, secp_p - secp_Gy).
Proof. vm_compute. reflexivity. Qed.

Example ex_n_G : pt_mul_G secp_n = None.
Proof. vm_compute. reflexivity. Qed.

Example ex_0_G : pt_mul_G 0 = None.
Proof. vm_compute. reflexivity. Qed.

Example ex_neg_G : pt_mul_G (-1) = pt_neg secp_G.
Proof. vm_compute. reflexivity. Qed.

Example ex_np1_G : pt_mul_G (secp_n + 1) = secp_G.
Proof. vm_compute. reflexivity. Qed.

Example ex_add_neg : pt_add secp_G (pt_neg secp_G) = None.
Proof. vm_compute. reflexivity. Qed.

Example ex_add_dbl : pt_add secp_G secp_G = secp_2G.
Proof. vm_compute. reflexivity. Qed.

Example ex_add_inf_l : pt_add None secp_G = secp_G.
Proof. vm_compute. reflexivity. Qed.

Example ex_add_inf_r : pt_add secp_G None = secp_G.
Proof. vm_compute. reflexivity. Qed.

Example ex_lift_G : lift_x secp_Gx (Z.odd secp_Gy) = secp_G.
Proof. vm_compute. reflexivity. Qed.

Example ex_lift_G_neg : lift_x secp_Gx (negb (Z.odd secp_Gy)) = pt_neg secp_G.
Proof. vm_compute. reflexivity. Qed.

(** x = 5 is not the abscissa of a curve point (5^3 + 7 = 132 is a non-residue) *)
Example ex_lift_none : lift_x 5 false = None.
Proof. vm_compute. reflexivity. Qed.

Example ex_lift_range : lift_x secp_p false = None /\ lift_x (-1) false = None.
Proof. vm_compute. split; reflexivity. Qed.

Example ex_inv_2 : (inv_n 2 * 2) mod secp_n = 1.
Proof. vm_compute. reflexivity. Qed.

Example ex_inv_0 : inv_n 0 = 0.
Proof. vm_compute. reflexivity. Qed.

Example ex_inv_big :
  let a := 0x4f3edf983ac636a65a842ce7c78d9aa706d3b113bce9c46f30d7d21715b23b1d in
  (inv_n a * a) mod secp_n = 1 /\ 0 <= inv_n a < secp_n.
Proof. vm_compute. repeat split; discriminate. Qed.

(** Shamir-style combination agrees with a single multiplication: 5·(2G) + 7·G = 17·G *)
Example ex_mul2 : pt_mul2 5 secp_2G 7 secp_G = pt_mul_G 17.
Proof. vm_compute. reflexivity. Qed.

(** a·P + b·G cancelling to infinity *)
Example ex_mul2_inf : pt_mul2 1 secp_G (secp_n - 1) secp_G = None.
Proof. vm_compute. reflexivity. Qed.

(** the first ganache development key; reference public key from k256 (harness
    [prim.pubkey]); its Keccak address is 0x90F8bf6A479f320ead074411a4B0e7944Ea8c9C1 *)
Example ex_ganache :
  pt_mul_G 0x4f3edf983ac636a65a842ce7c78d9aa706d3b113bce9c46f30d7d21715b23b1d
  = Some (0xe68acfc0253a10620dff706b0a1b1f1f5833ea3beb3bde2250d5f271f3563606,
          0x672ebc45e0b7ea2e816ecb70ca03137b1c9476eec63d4632e990020b7b6fba39).
Proof. vm_compute. reflexivity. Qed.

Example ex_ganache_ser :
  let P := pt_mul_G 0x4f3edf983ac636a65a842ce7c78d9aa706d3b113bce9c46f30d7d21715b23b1d in
  be_val (ser_compressed P)
  = 0x03e68acfc0253a10620dff706b0a1b1f1f5833ea3beb3bde2250d5f271f3563606%N
  /\ be_val (ser_uncompressed P)
  = 0x04e68acfc0253a10620dff706b0a1b1f1f5833ea3beb3bde2250d5f271f3563606672ebc45e0b7ea2e816ecb70ca03137b1c9476eec63d4632e990020b7b6fba39%N.
Proof. cbv zeta. rewrite ex_ganache. vm_compute. split; reflexivity. Qed.

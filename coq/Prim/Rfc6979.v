(** RFC 6979 section 3.2 nonce generation, as the [rfc6979 0.4.0] crate runs it for
    hdwallet ([generate_k::<Sha256, U32>(x, n, h, b"")]): an executable primitive,
    "modelled, not verified", parameterised by the HMAC function (instantiated with
    [Prim.Hmac.hmac_sha256] in [Run/DC05.v] only).

    rfc6979-0.4.0/src/lib.rs:

      pub fn generate_k<D, N>(x, n, h, data) -> ByteArray<N> {
          let mut hmac_drbg = HmacDrbg::<D>::new(x, h, data);
          loop {
              let mut k = ByteArray::<N>::default();
              hmac_drbg.fill_bytes(&mut k);
              let k_is_zero = ct_cmp::ct_eq(&k, &ByteArray::default());
              if (!k_is_zero & ct_cmp::ct_lt(&k, n)).into() { return k; }
          }
      }
      HmacDrbg::new(entropy_input, nonce, additional_data):
          k = HMAC key 0x00 * 32;  v = 0x01 * 32;
          for i in 0..=1 {
              k.update(&v); k.update(&[i]); k.update(entropy_input); k.update(nonce);
              k.update(additional_data);
              k = SimpleHmac::new_from_slice(&k.finalize().into_bytes());
              k.update(&v); v = k.finalize_reset().into_bytes();
          }
      fill_bytes(out):            (out is 32 bytes = one chunk)
          k.update(&v); v = k.finalize_reset(); out = v;
          k.update(&v); k.update(&[0x00]); k = new_from_slice(k.finalize_reset());
          k.update(&v); v = k.finalize_reset();

    The caller (ecdsa-0.16.9 hazmat.rs, [try_sign_prehashed_rfc6979]) passes
    [x = self.to_repr()] (32 bytes, big endian), [n = ORDER] and [h = z] *as given*: the
    32 digest bytes are NOT reduced modulo n before they enter the DRBG (RFC 6979 would
    feed bits2octets(h1) = int2octets(bits2int(h1) mod q)).  The two coincide for digests
    whose value is below n.  Additional data is empty.

    [fill_bytes] performs its K/V update after every output, also after the accepted
    one; the state is dropped on return, so updating only on rejection (as below and as in
    the RFC) gives the same result.

    The retry loop is unbounded in Rust; here it has fuel 100 and fuel exhaustion returns
    0 (never reached in practice: a candidate is rejected with probability < 2^-127). *)
From Coq Require Import List Bool NArith.
From HDW Require Import Lib.Bytes.
Import ListNotations.
Local Open Scope N_scope.

Section Rfc6979.
  Variable hmac : bytes -> bytes -> bytes.   (* key, message *)

  (** state (K, V) after [HmacDrbg::new x h1 b""] *)
  Definition drbg_new (x h1 : bytes) : bytes * bytes :=
    let V0 := repeat 1 32 in
    let K0 := repeat 0 32 in
    let K1 := hmac K0 (V0 ++ [0] ++ x ++ h1) in
    let V1 := hmac K1 V0 in
    let K2 := hmac K1 (V1 ++ [1] ++ x ++ h1) in
    let V2 := hmac K2 V1 in
    (K2, V2).

  (** the [loop] of [generate_k]: candidate = next V; accepted iff 0 < k < n *)
  Fixpoint drbg_loop (fuel : nat) (K V : bytes) (n : N) : N :=
    match fuel with
    | O => 0
    | S fuel' =>
        let V1 := hmac K V in
        let k := be_val V1 in
        if (0 <? k) && (k <? n) then k
        else
          let K' := hmac K (V1 ++ [0]) in
          let V' := hmac K' V1 in
          drbg_loop fuel' K' V' n
    end.

  (** whatever the HMAC: the loop returns a value below n (0 on fuel exhaustion) *)
  Lemma drbg_loop_range : forall fuel K V n, 0 < n -> drbg_loop fuel K V n < n.
  Proof.
    induction fuel as [|fuel IH]; intros K V n Hn; cbn [drbg_loop]; [exact Hn|].
    destruct ((0 <? be_val (hmac K V)) && (be_val (hmac K V) <? n)) eqn:Hc; [|apply IH, Hn].
    apply andb_prop in Hc as [_ Hlt]. apply N.ltb_lt, Hlt.
  Qed.

  Definition rfc6979_fuel : nat := 100.

  (** [x]: the 32 big-endian bytes of the key; [h1]: the 32 digest bytes as given *)
  Definition rfc6979_k (x h1 : bytes) (n : N) : N :=
    let '(K, V) := drbg_new x h1 in drbg_loop rfc6979_fuel K V n.
End Rfc6979.

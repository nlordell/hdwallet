(** Executable model of Unicode NFKD normalisation (UAX #15), as performed by the Rust crate
    [unicode-normalization] ([str.nfkd()]):

      /repo/src/mnemonic.rs:155      salt.nfkd().to_string().as_bytes(),

    NFKD = full (recursive) compatibility decomposition of every character, followed by the
    canonical ordering of combining marks.  The data ([Prim/NfkdTable.v]) is generated from
    Python's [unicodedata] by /verif/vp/gen_nfkd.py; Hangul syllables are decomposed
    arithmetically (UAX #15 / Unicode chapter 3.12), exactly as the crate does.

    "Modelled, not verified" against UAX #15.  Proved here: ASCII text is a fixed point and an
    ASCII prefix passes through unchanged ([nfkd_ascii], [nfkd_ascii_prefix]);
    [Proofs/NfkdProofs.v] adds that the result is a normal form and [nfkd] is idempotent. *)
From Coq Require Import List NArith Lia Bool FMapPositive.
From HDW Require Import Lib.Bytes Prim.NfkdTable.
Import ListNotations.
Open Scope N_scope.

(* ---------------- decomposition of one character ---------------- *)

(** Hangul constants (Unicode 3.12): SBase, LBase, VBase, TBase, LCount, VCount, TCount, NCount. *)
Definition hangul_SBase : N := 0xAC00.
Definition hangul_LBase : N := 0x1100.
Definition hangul_VBase : N := 0x1161.
Definition hangul_TBase : N := 0x11A7.
Definition hangul_TCount : N := 28.
Definition hangul_NCount : N := 588.   (* VCount * TCount = 21 * 28 *)
Definition hangul_SCount : N := 11172. (* LCount * NCount = 19 * 588 *)

Definition is_hangul_syllable (c : N) : bool :=
  (hangul_SBase <=? c) && (c <? hangul_SBase + hangul_SCount).

(** unicode-normalization, normalize.rs [decompose_hangul]:
      let s_index = s as u32 - S_BASE;
      let l_index = s_index / N_COUNT;            emit(L_BASE + l_index)
      let v_index = (s_index % N_COUNT) / T_COUNT; emit(V_BASE + v_index)
      let t_index = s_index % T_COUNT;
      if t_index > 0 { emit(T_BASE + t_index) } *)
Definition decomp_hangul (c : N) : list N :=
  let s := c - hangul_SBase in
  let l := hangul_LBase + s / hangul_NCount in
  let v := hangul_VBase + (s mod hangul_NCount) / hangul_TCount in
  let t := s mod hangul_TCount in
  if t =? 0 then [l; v] else [l; v; hangul_TBase + t].

(** Full compatibility decomposition of one code point: table, else Hangul, else itself.
    (normalize.rs [decompose]: ASCII fast path, then the compatibility / canonical tables
    - whose entries are already fully decomposed - then [decompose_hangul], else [emit(c)].) *)
Definition decomp (c : N) : list N :=
  match PositiveMap.find (N.succ_pos c) decomp_map with
  | Some d => d
  | None => if is_hangul_syllable c then decomp_hangul c else [c]
  end.

(** Canonical combining class, 0 (starter) by default. *)
Definition ccc (c : N) : N :=
  match PositiveMap.find (N.succ_pos c) ccc_map with
  | Some k => k
  | None => 0
  end.

(* ---------------- canonical ordering ---------------- *)

(** Stable insertion of the newly arrived non-starter [c] into the current run, which is
    sorted by combining class: [c] goes before the first mark of strictly larger class,
    i.e. after all marks of class <= ccc c that arrived earlier. *)
Fixpoint ins_mark (c : N) (run : list N) : list N :=
  match run with
  | [] => [c]
  | d :: r => if ccc c <? ccc d then c :: d :: r else d :: ins_mark c r
  end.

(** decompose.rs [Decompositions]: characters of class 0 flush the pending buffer
    ([sort_pending]: a *stable* [sort_by_key] on the class of the pending marks) and are
    emitted in place; non-starters are appended to the pending buffer.  Here the pending
    run is kept sorted incrementally. *)
Fixpoint reorder_go (run : list N) (l : list N) : list N :=
  match l with
  | [] => run
  | c :: r =>
      if ccc c =? 0 then run ++ c :: reorder_go [] r
      else reorder_go (ins_mark c run) r
  end.

Definition reorder (l : list N) : list N := reorder_go [] l.

Definition nfkd (t : list N) : list N := reorder (flat_map decomp t).

(* ---------------- ASCII lemmas ---------------- *)

Definition stable (c : N) : bool :=
  match decomp c with
  | [d] => d =? c
  | _ => false
  end.

Lemma stable_spec c : stable c = true <-> decomp c = [c].
Proof.
  unfold stable. destruct (decomp c) as [|d [|e r]] eqn:E; split; intros H; try discriminate.
  - apply N.eqb_eq in H. subst d. reflexivity.
  - inversion H. subst d. apply N.eqb_refl.
Qed.

Lemma flat_map_decomp_stable l :
  (forall d, In d l -> decomp d = [d]) -> flat_map decomp l = l.
Proof.
  induction l as [|a l IH]; intros H; cbn [flat_map]; [reflexivity|].
  rewrite (H a (or_introl eq_refl)). cbn [app]. f_equal. apply IH.
  intros d Hd. apply H. right. exact Hd.
Qed.

Lemma ascii_check :
  forallb (fun i => stable (N.of_nat i) && (ccc (N.of_nat i) =? 0)) (seq 0 128) = true.
Proof. vm_compute. reflexivity. Qed.

Lemma ascii_stable c : c < 128 -> decomp c = [c] /\ ccc c = 0.
Proof.
  intros H. rewrite <- stable_spec, <- N.eqb_eq, <- andb_true_iff.
  apply (forallb_seq_N (fun c => stable c && (ccc c =? 0)) 0 128 c ascii_check). lia.
Qed.

Lemma decomp_ascii c : c < 128 -> decomp c = [c].
Proof. apply ascii_stable. Qed.

Lemma ccc_ascii c : c < 128 -> ccc c = 0.
Proof. apply ascii_stable. Qed.

Lemma flat_map_decomp_ascii a : all_ascii a -> flat_map decomp a = a.
Proof.
  intros H. apply flat_map_decomp_stable. intros d Hd. apply decomp_ascii.
  exact (proj1 (Forall_forall _ _) H d Hd).
Qed.

Lemma reorder_ascii_prefix a p : all_ascii a -> reorder (a ++ p) = a ++ reorder p.
Proof.
  unfold reorder. induction 1 as [|c r Hc _ IH]; [reflexivity|].
  rewrite <- app_comm_cons. cbn [reorder_go]. rewrite (ccc_ascii c Hc), N.eqb_refl, IH.
  reflexivity.
Qed.

Lemma nfkd_ascii_prefix a p : all_ascii a -> nfkd (a ++ p) = a ++ nfkd p.
Proof.
  intros H. unfold nfkd. rewrite flat_map_app, (flat_map_decomp_ascii a H).
  apply reorder_ascii_prefix. exact H.
Qed.

Lemma nfkd_ascii a : all_ascii a -> nfkd a = a.
Proof.
  intros H. rewrite <- (app_nil_r a) at 1. rewrite (nfkd_ascii_prefix a [] H).
  change (nfkd []) with (@nil N). apply app_nil_r.
Qed.

(* ---------------- sanity checks (reference: Python unicodedata / the Rust crate) ---------------- *)

Example nfkd_e_acute : nfkd [0xE9] = [0x65; 0x301]. Proof. vm_compute. reflexivity. Qed.
Example nfkd_fi : nfkd [0xFB01] = [0x66; 0x69]. Proof. vm_compute. reflexivity. Qed.
Example nfkd_circled1 : nfkd [0x2460] = [0x31]. Proof. vm_compute. reflexivity. Qed.
Example nfkd_fullwidth_W : nfkd [0xFF37] = [0x57]. Proof. vm_compute. reflexivity. Qed.
Example nfkd_han : nfkd [0xD55C] = [0x1112; 0x1161; 0x11AB]. Proof. vm_compute. reflexivity. Qed.
Example nfkd_gag : nfkd [0xAC01] = [0x1100; 0x1161; 0x11A8]. Proof. vm_compute. reflexivity. Qed.
Example nfkd_ga : nfkd [0xAC00] = [0x1100; 0x1161]. Proof. vm_compute. reflexivity. Qed.
Example nfkd_hih : nfkd [0xD7A3] = [0x1112; 0x1175; 0x11C2]. Proof. vm_compute. reflexivity. Qed.
(* reordering across a decomposition; 1E9B -> 017F 0307 canonically, and 017F (long s) -> "s" by compatibility *)
Example nfkd_1e9b_0323 : nfkd [0x1E9B; 0x323] = [0x73; 0x323; 0x307]. Proof. vm_compute. reflexivity. Qed.
Example nfkd_a_0301_0323 : nfkd [0x61; 0x301; 0x323] = [0x61; 0x323; 0x301]. Proof. vm_compute. reflexivity. Qed.
Example nfkd_0344 : nfkd [0x344] = [0x308; 0x301]. Proof. vm_compute. reflexivity. Qed.
Example nfkd_math_bold_A : nfkd [0x1D400] = [0x41]. Proof. vm_compute. reflexivity. Qed.
Example nfkd_ohm : nfkd [0x2126] = [0x3A9]. Proof. vm_compute. reflexivity. Qed.
Example nfkd_fdfa :
  nfkd [0xFDFA] = [0x635; 0x644; 0x649; 0x20; 0x627; 0x644; 0x644; 0x647; 0x20;
                   0x639; 0x644; 0x64A; 0x647; 0x20; 0x648; 0x633; 0x644; 0x645].
Proof. vm_compute. reflexivity. Qed.
Example nfkd_emoji : nfkd [0x1F600] = [0x1F600]. Proof. vm_compute. reflexivity. Qed.
Example nfkd_01d6 : nfkd [0x1D6] = [0x75; 0x308; 0x304]. Proof. vm_compute. reflexivity. Qed.
(* stability: equal classes keep their order (0301 and 0300 both have class 230) *)
Example nfkd_stable : nfkd [0x61; 0x301; 0x300; 0x323; 0x301] = [0x61; 0x323; 0x301; 0x300; 0x301].
Proof. vm_compute. reflexivity. Qed.
